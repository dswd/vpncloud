(* C16: NodeInfo round trip through the wire format (with the format's normalisation). *)
From VpnModel Require Import Base BaseProofs RangeMatch RangeMatchProofs NodeInfo.

Definition addr_ok (a : bytes) : Prop := length a = 6%nat \/ length a = 18%nat.

Lemma take_n_app : forall n a r, length a = n -> take_n n (a ++ r) = Some (a, r).
Proof. intros n a r H. unfold take_n. destruct (cut_app _ a r n H) as (-> & -> & ->). reflexivity. Qed.

Lemma read_addrs_concat : forall size l r, Forall (fun a => length a = size) l ->
  read_addrs_n size (length l) (concat l ++ r) = Some (l, r).
Proof.
  intros size l r H. induction H as [|a t Ha Ht IH]; [reflexivity|].
  cbn [length read_addrs_n concat]. rewrite <- app_assoc. rewrite take_n_app by exact Ha. rewrite IH. reflexivity.
Qed.

Lemma small_cases : forall n, n < 8 -> n = 0 \/ n = 1 \/ n = 2 \/ n = 3 \/ n = 4 \/ n = 5 \/ n = 6 \/ n = 7.
Proof. intros n H. lia. Qed.

Lemma flag_bits : forall n6 n4 extra, n6 < 8 -> n4 < 8 -> (extra = 0 \/ extra = 128) ->
  N.land (n6 * 8 + n4 + extra) 7 = n4 /\ N.land (n6 * 8 + n4 + extra) 56 / 8 = n6 /\
  (N.land (n6 * 8 + n4 + extra) 128 =? 0) = (extra =? 0).
Proof.
  intros n6 n4 extra H6 H4 He.
  apply small_cases in H6. apply small_cases in H4.
  repeat (destruct H6 as [H6|H6]); subst n6; repeat (destruct H4 as [H4|H4]); subst n4; destruct He; subst extra; vm_compute; repeat split.
Qed.

Definition v6_of (l : list bytes) := fst (split_addrs l).
Definition v4_of (l : list bytes) := snd (split_addrs l).

Lemma split_props : forall l, Forall addr_ok l ->
  (length (v6_of l) <= 7)%nat /\ (length (v4_of l) <= 7)%nat /\
  Forall (fun a => length a = 18%nat) (v6_of l) /\ Forall (fun a => length a = 6%nat) (v4_of l).
Proof.
  intros l H. destruct (split_by_length 6 18 l H) as [F4 F6]. unfold v6_of, v4_of, split_addrs. cbn [fst snd].
  split; [apply firstn_le_length|]. split; [apply firstn_le_length|].
  split; apply Forall_firstn_skipn; assumption.
Qed.

Lemma lenN_small : forall (A:Type) (l : list A), (length l <= 7)%nat -> lenN l < 8.
Proof. intros. unfold lenN. lia. Qed.

Lemma read_addr_list : forall l extra r, Forall addr_ok l -> (extra = 0 \/ extra = 128) ->
  read_addr_list_inner (lenN (v6_of l) * 8 + lenN (v4_of l) + extra) (concat (v6_of l) ++ concat (v4_of l) ++ r)
  = Some (norm_addrs l, r).
Proof.
  intros l extra r H He. destruct (split_props l H) as (L6 & L4 & F6 & F4).
  destruct (flag_bits (lenN (v6_of l)) (lenN (v4_of l)) extra (lenN_small _ _ L6) (lenN_small _ _ L4) He) as (B4 & B6 & _).
  unfold read_addr_list_inner. rewrite B4, B6. unfold lenN. rewrite !Nat2N.id.
  rewrite read_addrs_concat by exact F6. rewrite read_addrs_concat by exact F4.
  unfold norm_addrs. fold (v6_of l). unfold v6_of, v4_of. destruct (split_addrs l). reflexivity.
Qed.

Lemma enc_addrs_shape : forall extra l,
  enc_addrs extra l = (lenN (v6_of l) * 8 + lenN (v4_of l) + extra) :: concat (v6_of l) ++ concat (v4_of l).
Proof. intros. unfold enc_addrs, v6_of, v4_of. destruct (split_addrs l). reflexivity. Qed.

Lemma enc_addrs_len : forall extra l, Forall addr_ok l -> (length (enc_addrs extra l) <= 169)%nat.
Proof.
  intros extra l H. destruct (split_props l H) as (L6 & L4 & F6 & F4). rewrite enc_addrs_shape. cbn [length].
  rewrite app_length, (concat_length_const 18 _ F6), (concat_length_const 6 _ F4). lia.
Qed.

Definition peer_ok (p : peer_info) : Prop :=
  Forall addr_ok (pi_addrs p) /\ match pi_node p with Some id => length id = 16%nat | None => True end.
Definition norm_peer (p : peer_info) : peer_info := {| pi_node := pi_node p; pi_addrs := norm_addrs (pi_addrs p) |}.

Lemma enc_peer_shape : forall p,
  enc_peer p = (lenN (v6_of (pi_addrs p)) * 8 + lenN (v4_of (pi_addrs p)) + (match pi_node p with Some _ => 128 | None => 0 end))
               :: (match pi_node p with Some id => id | None => [] end) ++ concat (v6_of (pi_addrs p)) ++ concat (v4_of (pi_addrs p)).
Proof. intros p. unfold enc_peer. destruct (pi_node p) as [id|]; rewrite enc_addrs_shape; reflexivity. Qed.

Lemma dec_peers_cons : forall f p rest, peer_ok p ->
  dec_peers (S f) (length (enc_peer p ++ rest)) (enc_peer p ++ rest) =
  option_map (cons (norm_peer p)) (dec_peers f (length rest) rest).
Proof.
  intros f p rest [Ha Hid]. rewrite enc_peer_shape. destruct (split_props _ Ha) as (L6 & L4 & _).
  set (idb := match pi_node p return list N with Some id => id | None => [] end).
  set (ex := match pi_node p with Some _ => 128 | None => 0 end).
  assert (Hex : ex = 0 \/ ex = 128) by (unfold ex; destruct (pi_node p); auto).
  destruct (flag_bits _ _ ex (lenN_small _ _ L6) (lenN_small _ _ L4) Hex) as (_ & _ & B128).
  pose proof (read_addr_list (pi_addrs p) ex rest Ha Hex) as Hread.
  set (flags := _ + ex) in *. set (c6 := concat (v6_of (pi_addrs p))) in *. set (c4 := concat (v4_of (pi_addrs p))) in *.
  cbn [app]. rewrite <- !app_assoc. cbn [dec_peers length Nat.eqb]. rewrite B128.
  assert (Hid' : (if negb (ex =? 0) then take_n 16 (idb ++ c6 ++ c4 ++ rest) else Some ([], idb ++ c6 ++ c4 ++ rest))
                 = Some (idb, c6 ++ c4 ++ rest)).
  { unfold ex, idb. destruct (pi_node p); [apply take_n_app, Hid|reflexivity]. }
  rewrite Hid', Hread.
  replace (S (length (idb ++ c6 ++ c4 ++ rest)) - (S (length (idb ++ c6 ++ c4 ++ rest)) - length rest))%nat with (length rest)
    by (rewrite !app_length; lia).
  unfold norm_peer, ex. destruct (pi_node p); reflexivity.
Qed.

Lemma dec_peers_ok : forall ps fuel, Forall peer_ok ps -> (length (concat (map enc_peer ps)) < fuel)%nat ->
  dec_peers fuel (length (concat (map enc_peer ps))) (concat (map enc_peer ps)) = Some (map norm_peer ps).
Proof.
  induction ps as [|p t IH]; intros fuel Hok Hf; (destruct fuel as [|f]; [lia|]); [reflexivity|].
  inversion Hok as [|? ? Hp Ht]; subst. cbn [map concat] in *.
  rewrite dec_peers_cons, IH; [reflexivity|exact Ht| |exact Hp].
  rewrite app_length, enc_peer_shape in Hf. cbn [length] in Hf. lia.
Qed.

Lemma dec_claims_cons : forall f c rest, (length (fst c) <= 16)%nat ->
  dec_claims (S f) (length (range_write c ++ rest)) (range_write c ++ rest) =
  option_map (cons c) (dec_claims f (length rest) rest).
Proof.
  intros f [b p] rest Hc. cbn [dec_claims].
  assert (Hlen : (length (range_write (b, p) ++ rest) =? 0)%nat = false) by (apply Nat.eqb_neq; cbn [range_write length app]; lia).
  rewrite Hlen, range_roundtrip by exact Hc.
  replace (length (range_write (b, p) ++ rest) - (length (range_write (b, p) ++ rest) - length rest))%nat with (length rest)
    by (rewrite app_length; lia).
  reflexivity.
Qed.

Lemma dec_claims_ok : forall cs fuel, Forall (fun c => (length (fst c) <= 16)%nat) cs -> (length (concat (map range_write cs)) < fuel)%nat ->
  dec_claims fuel (length (concat (map range_write cs))) (concat (map range_write cs)) = Some cs.
Proof.
  induction cs as [|c t IH]; intros fuel Hok Hf; (destruct fuel as [|f]; [lia|]); [reflexivity|].
  inversion Hok as [|? ? Hc Ht]; subst. cbn [map concat] in *.
  rewrite dec_claims_cons, IH; [reflexivity|exact Ht| |exact Hc].
  rewrite app_length in Hf. cbn [range_write length] in Hf. lia.
Qed.

Definition acc0 : ni_acc := {| acc_peers := []; acc_claims := []; acc_timeout := None; acc_node := None; acc_addrs := [] |}.

Lemma take_n_exact : forall n a, length a = n -> take_n n a = Some (a, []).
Proof. intros n a H. rewrite <- (app_nil_r a) at 1. apply take_n_app. exact H. Qed.

Lemma dp_node : forall f acc node r, length node = 16%nat ->
  dec_parts (S f) acc (enc_part 4 node ++ r) =
  dec_parts f {| acc_peers := acc_peers acc; acc_claims := acc_claims acc; acc_timeout := acc_timeout acc; acc_node := Some node; acc_addrs := acc_addrs acc |} r.
Proof.
  intros f acc node r Hl. assert (Hb : lenN node < 65536) by (unfold lenN; lia).
  unfold enc_part. destruct (tlv_header 4 node r Hb) as (l1 & l0 & -> & L). cbn [dec_parts N.eqb Pos.eqb].
  rewrite L, firstn_app_exact by reflexivity. rewrite take_n_exact by exact Hl. rewrite skipn_app_exact by exact Hl. reflexivity.
Qed.

Lemma dp_timeout : forall f acc t r, t < 65536 ->
  dec_parts (S f) acc (enc_part 3 (be_enc 2 t) ++ r) =
  dec_parts f {| acc_peers := acc_peers acc; acc_claims := acc_claims acc; acc_timeout := Some t; acc_node := acc_node acc; acc_addrs := acc_addrs acc |} r.
Proof.
  intros f acc t r Ht. assert (Hl : length (be_enc 2 t) = 2%nat) by reflexivity.
  assert (Hb : lenN (be_enc 2 t) < 65536) by (unfold lenN; rewrite Hl; lia).
  unfold enc_part. destruct (tlv_header 3 (be_enc 2 t) r Hb) as (l1 & l0 & -> & L). cbn [dec_parts N.eqb Pos.eqb].
  rewrite L, firstn_app_exact by reflexivity. rewrite take_n_exact by exact Hl. rewrite skipn_app_exact by exact Hl.
  rewrite be_val_enc_small by (cbn; lia). reflexivity.
Qed.

Lemma dp_peers : forall f acc ps r, Forall peer_ok ps -> lenN (concat (map enc_peer ps)) < 65536 ->
  dec_parts (S f) acc (enc_part 1 (concat (map enc_peer ps)) ++ r) =
  dec_parts f {| acc_peers := map norm_peer ps; acc_claims := acc_claims acc; acc_timeout := acc_timeout acc; acc_node := acc_node acc; acc_addrs := acc_addrs acc |} r.
Proof.
  intros f acc ps r Hok Hb. set (body := concat (map enc_peer ps)) in *.
  unfold enc_part. destruct (tlv_header 1 body r Hb) as (l1 & l0 & -> & L). cbn [dec_parts N.eqb Pos.eqb].
  rewrite L, firstn_app_exact by reflexivity. rewrite skipn_app_exact by reflexivity.
  unfold body. rewrite dec_peers_ok; [reflexivity|exact Hok|lia].
Qed.

Lemma dp_claims : forall f acc cs r, Forall (fun c => (length (fst c) <= 16)%nat) cs -> lenN (concat (map range_write cs)) < 65536 ->
  dec_parts (S f) acc (enc_part 2 (concat (map range_write cs)) ++ r) =
  dec_parts f {| acc_peers := acc_peers acc; acc_claims := cs; acc_timeout := acc_timeout acc; acc_node := acc_node acc; acc_addrs := acc_addrs acc |} r.
Proof.
  intros f acc cs r Hok Hb. set (body := concat (map range_write cs)) in *.
  unfold enc_part. destruct (tlv_header 2 body r Hb) as (l1 & l0 & -> & L). cbn [dec_parts N.eqb Pos.eqb].
  rewrite L, firstn_app_exact by reflexivity. rewrite skipn_app_exact by reflexivity.
  unfold body. rewrite dec_claims_ok; [reflexivity|exact Hok|lia].
Qed.

Lemma dp_addrs : forall f acc l r, Forall addr_ok l ->
  dec_parts (S f) acc (enc_part 5 (enc_addrs 0 l) ++ r) =
  dec_parts f {| acc_peers := acc_peers acc; acc_claims := acc_claims acc; acc_timeout := acc_timeout acc; acc_node := acc_node acc; acc_addrs := norm_addrs l |} r.
Proof.
  intros f acc l r Hok. pose proof (enc_addrs_len 0 l Hok) as Hlen.
  assert (Hb : lenN (enc_addrs 0 l) < 65536) by (unfold lenN; lia).
  unfold enc_part. destruct (tlv_header 5 (enc_addrs 0 l) r Hb) as (l1 & l0 & -> & L). cbn [dec_parts N.eqb Pos.eqb].
  rewrite L, firstn_app_exact by reflexivity. rewrite enc_addrs_shape.
  pose proof (read_addr_list l 0 [] Hok (or_introl eq_refl)) as Hr. rewrite !app_nil_r in Hr. rewrite Hr.
  cbn [length]. rewrite Nat.sub_0_r.
  rewrite (skipn_app_exact _ (_ :: _) r) by reflexivity. reflexivity.
Qed.

Lemma dp_end : forall f acc r, dec_parts (S f) acc (0 :: r) = Some acc.
Proof. reflexivity. Qed.

Definition ni_wf (x : node_info) : Prop :=
  length (ni_node x) = 16%nat /\
  Forall peer_ok (ni_peers x) /\ lenN (concat (map enc_peer (ni_peers x))) < 65536 /\
  Forall (fun c => (length (fst c) <= 16)%nat) (ni_claims x) /\ lenN (concat (map range_write (ni_claims x))) < 65536 /\
  (match ni_timeout x with Some t => t < 65536 | None => True end) /\
  Forall addr_ok (ni_addrs x).

Lemma norm_peers_eq : forall ps, map norm_peer ps = map (fun p => {| pi_node := pi_node p; pi_addrs := norm_addrs (pi_addrs p) |}) ps.
Proof. reflexivity. Qed.

(* the parts of an encoded message fill the accumulator; each takes one unit of fuel *)
Lemma dec_parts_encoded : forall x tail f, ni_wf x -> (6 <= f)%nat ->
  dec_parts f acc0 (ni_encode x ++ tail) =
  Some {| acc_peers := map norm_peer (ni_peers x); acc_claims := ni_claims x; acc_timeout := ni_timeout x;
          acc_node := Some (ni_node x); acc_addrs := norm_addrs (ni_addrs x) |}.
Proof.
  intros x tail f (Hn & Hp & Hpl & Hc & Hcl & Ht & Ha) Hf. do 6 (destruct f as [|f]; [lia|]).
  unfold ni_encode. rewrite <- !app_assoc. rewrite dp_node, dp_peers, dp_claims by assumption.
  destruct (ni_timeout x) as [t|]; cbn [app].
  - rewrite dp_timeout, dp_addrs by assumption. apply dp_end.
  - rewrite dp_addrs by assumption. apply dp_end.
Qed.

(* C16-T1: node information decodes to exactly what was encoded, up to the format's normalisation
   (at most seven addresses per family and entry, IPv6 before IPv4), whatever follows the end marker *)
Theorem nodeinfo_roundtrip : forall x tail, ni_wf x -> ni_decode (ni_encode x ++ tail) = Ok (ni_normalise x).
Proof.
  intros x tail Hwf. unfold ni_decode. fold acc0. rewrite dec_parts_encoded; [reflexivity|exact Hwf|].
  unfold ni_encode, enc_part. rewrite !app_length. cbn [length]. lia.
Qed.

Example ni_wf_example :
  ni_wf {| ni_node := zeros 16; ni_peers := [{| pi_node := Some (zeros 16); pi_addrs := [zeros 6; zeros 18] |}; {| pi_node := None; pi_addrs := [] |}];
           ni_claims := [([10; 0; 1; 0], 24)]; ni_timeout := Some 300; ni_addrs := [zeros 6] |}.
Proof.
  unfold ni_wf, peer_ok, addr_ok. cbn [ni_node ni_peers ni_claims ni_timeout ni_addrs pi_node pi_addrs].
  repeat (first [apply Forall_nil | apply Forall_cons | split | (left; reflexivity) | (right; reflexivity) | reflexivity | exact I
                 | (vm_compute; reflexivity) | (cbn; lia)]).
Qed.

(* C16-T2: a part with an unknown tag is skipped, whatever it contains *)
Theorem nodeinfo_unknown_skipped : forall f acc tag body r, 5 < tag -> lenN body < 65536 ->
  dec_parts (S f) acc (enc_part tag body ++ r) = dec_parts f acc r.
Proof.
  intros f acc tag body r Ht Hb. unfold enc_part. destruct (tlv_header tag body r Hb) as (l1 & l0 & -> & L). cbn [dec_parts]. rewrite L.
  rewrite !(proj2 (N.eqb_neq tag _)) by lia.
  destruct (cut_app _ body r _ eq_refl) as (-> & _ & ->). reflexivity.
Qed.

Theorem nodeinfo_decode_total : forall d, is_panic (ni_decode d) = false.
Proof. intros d. unfold ni_decode. destruct (dec_parts _ _ d) as [a|]; [destruct (acc_node a)|]; reflexivity. Qed.
