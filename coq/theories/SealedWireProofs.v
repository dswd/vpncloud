(* C02 / C06 at node level: a node whose configuration does not allow the "plain" algorithm never negotiates an unencrypted
   connection and never puts cleartext on the wire - in every state it can reach.  Every datagram it emits is a handshake message
   whose payload (the node information) is absent or sealed, an empty datagram, or a sealed datagram. *)
From VpnModel Require Import Base Core Conn InitSteps PcSteps PeerCrypto Node NodeSteps PcInvariant NextHopProofs.

Definition noclear (m : imsg) : Prop := match im_payload m with Some (PPlain _) => False | _ => True end.

Definition IE (i : init_state) : Prop :=
  a_plain (i_algos i) = false /\
  (i_stage i = STAGE_PENG -> exists c, i_core i = Some c) /\
  (forall m, i_last i = Some m -> noclear m).

Lemma select_not_plain : forall own peer, a_plain own = false -> select_algorithm own peer <> Ok None.
Proof. intros own peer H. unfold select_algorithm. rewrite H. cbn [andb]. destruct (candidates _ _); discriminate. Qed.

Lemma init_decrypt_core : forall ok c p, exists c', fst (init_decrypt ok (Some c) p) = Some c'.
Proof.
  intros ok c p. unfold init_decrypt. destruct p as [d|b].
  - destruct (core_decrypt c d) as [c1 [pl|e|s]]; eexists; reflexivity.
  - destruct (core_decrypt c (dgram_of_bytes b)) as [c1 x]. eexists; reflexivity.
Qed.

Definition hi_post (s' : init_state) (r : res init_result) (rep : option imsg) : Prop :=
  IE s' /\ (forall rm, rep = Some rm -> noclear rm) /\ (forall pl ini, r = Ok (ISuccess pl ini) -> (exists c, i_core s' = Some c) /\ i_stage s' <> STAGE_PENG).

(* what the stage handlers need of the object the gate hands them *)
Definition IE0 (s0 : init_state) : Prop := a_plain (i_algos s0) = false /\ (forall x, i_last s0 = Some x -> noclear x).

Lemma hi_post_quiet : forall s r, IE s -> match r with Ok (ISuccess _ _) => False | _ => True end -> hi_post s r None.
Proof. intros s r H Hr. split; [exact H|]. split; [intros rm Hrm; discriminate Hrm|]. intros pl ini ->. destruct Hr. Qed.

Lemma hi_post_early : forall s r, IE0 s -> i_stage s = STAGE_PING \/ i_stage s = STAGE_PONG ->
  match r with Ok (ISuccess _ _) => False | _ => True end -> hi_post s r None.
Proof.
  intros s r [A L] Hs Hr. apply hi_post_quiet; [|exact Hr]. split; [exact A|]. split; [|exact L].
  intros H. destruct Hs as [Hs|Hs]; rewrite Hs in H; discriminate H.
Qed.

Lemma sent_sealed : forall s stage pub c, (stage =? STAGE_PING) = false -> a_plain (i_algos s) = false -> i_core s = Some c ->
  let s' := fst (init_send s stage pub) in
  noclear (snd (init_send s stage pub)) /\ (exists c', i_core s' = Some c') /\
  forall st ct, IE (upd_init s' (i_ecdh s') st ct (i_last s') (i_core s') (i_selected s') (i_retries s') (i_fresh s')).
Proof.
  intros s stage pub c Hst A Hc. rewrite init_send_reply by exact Hst. rewrite Hc. cbn [fst snd seal_payload].
  split; [exact I|]. split; [eexists; reflexivity|]. intros st ct.
  split; [exact A|]. split; [intros _; eexists; reflexivity|]. intros x Hx. injection Hx as <-. exact I.
Qed.

(* plain is not on offer, so a cipher is chosen and a core prepared: the pong's payload is sealed *)
Lemma hi_ping_ie : forall s0 m, IE0 s0 -> i_stage s0 = STAGE_PING ->
  hi_post (fst (fst (hi_ping s0 m))) (snd (fst (hi_ping s0 m))) (snd (hi_ping s0 m)).
Proof.
  intros s0 m H0 Hs. unfold hi_ping. cbv zeta.
  pose proof (select_not_plain (i_algos s0) (peer_algos m) (proj1 H0)) as Hsel.
  destruct (select_algorithm _ (peer_algos m)) as [[[a sp]|]|e|p]; [|contradiction Hsel; reflexivity|apply hi_post_early; [exact H0|left; exact Hs|exact I]..].
  unfold hi_key. destruct (ecdh (i_fresh s0) (peer_pub m)) as [k|]; [|apply hi_post_early; [exact H0|left; exact Hs|exact I]].
  unfold core_of_key.
  match goal with |- context [init_send ?s2 STAGE_PONG ?pub] =>
    destruct (sent_sealed s2 STAGE_PONG pub _ eq_refl (proj1 H0) eq_refl) as (Hn & _ & HIE); destruct (init_send s2 STAGE_PONG pub) as [s3 reply] end.
  split; [apply HIE|]. split; [intros rm Hrm; injection Hrm as <-; exact Hn|intros pl ini Hr; discriminate Hr].
Qed.

Lemma hi_pong_ie : forall ok s0 m, IE0 s0 -> i_stage s0 = STAGE_PONG ->
  hi_post (fst (fst (hi_pong ok s0 m))) (snd (fst (hi_pong ok s0 m))) (snd (hi_pong ok s0 m)).
Proof.
  intros ok s0 m H0 Hs. unfold hi_pong. cbv zeta.
  destruct (i_ecdh s0) as [priv|]; [|apply hi_post_early; [exact H0|right; exact Hs|exact I]].
  pose proof (select_not_plain (i_algos s0) (peer_algos m) (proj1 H0)) as Hsel.
  destruct (select_algorithm _ (peer_algos m)) as [[[a sp]|]|e|p]; [|contradiction Hsel; reflexivity|apply hi_post_early; [exact H0|right; exact Hs|exact I]..].
  unfold hi_key. destruct (ecdh priv (peer_pub m)) as [k|]; [|apply hi_post_early; [exact H0|right; exact Hs|exact I]]. unfold core_of_key.
  match goal with |- context [init_decrypt ok (Some ?c) ?p] =>
    destruct (init_decrypt_core ok c p) as [c' Hc']; destruct (init_decrypt ok (Some c) p) as [co pp] end.
  cbn [fst] in Hc'. subst co. destruct pp as [payload|]; [|apply hi_post_early; [exact H0|right; exact Hs|exact I]].
  match goal with |- context [init_send ?s2 STAGE_PENG None] =>
    destruct (sent_sealed s2 STAGE_PENG None c' eq_refl (proj1 H0) eq_refl) as (Hn & Hc3 & HIE); destruct (init_send s2 STAGE_PENG None) as [s3 reply] end.
  split; [apply HIE|]. split; [intros rm Hrm; injection Hrm as <-; exact Hn|intros pl ini _; split; [exact Hc3|discriminate]].
Qed.

Lemma hi_peng_ie : forall ok s0 m c, IE0 s0 -> i_core s0 = Some c ->
  hi_post (fst (fst (hi_peng ok s0 m))) (snd (fst (hi_peng ok s0 m))) (snd (hi_peng ok s0 m)).
Proof.
  intros ok s0 m c [A L] Hc. unfold hi_peng. rewrite Hc.
  destruct (init_decrypt_core ok c (peer_payload m)) as [c' Hc']. destruct (init_decrypt ok (Some c) (peer_payload m)) as [co pp].
  cbn [fst] in Hc'. subst co.
  assert (K : forall st, IE (upd_init s0 (i_ecdh s0) st (i_close_time s0) (i_last s0) (Some c') (i_selected s0) (i_retries s0) (i_fresh s0))).
  { intros st. split; [exact A|]. split; [intros _; eexists; reflexivity|exact L]. }
  destruct pp as [payload|]; cbn [fst snd]; [|apply hi_post_quiet; [exact (K (i_stage s0))|exact I]].
  split; [exact (K CLOSING)|]. split; [intros rm Hrm; discriminate Hrm|]. intros pl ini _. split; [eexists; reflexivity|discriminate].
Qed.

Lemma handle_init_ie : forall ok s m, IE s ->
  hi_post (fst (fst (handle_init ok s m))) (snd (fst (handle_init ok s m))) (snd (handle_init ok s m)).
Proof.
  intros ok s m HIE. pose proof HIE as (Ha & Hc & Hl). rewrite handle_init_eq.
  destruct (hi_gate s m) as [e|rep|s0] eqn:G; cbn [fst snd]; [apply hi_post_quiet; [exact HIE|exact I]| |].
  - split; [exact HIE|]. split; [|intros pl ini Hr; discriminate Hr].
    intros rm Hrm. destruct (hi_gate_ignore s m rep G) as [->| ->]; [discriminate Hrm|exact (Hl rm Hrm)].
  - pose proof (hi_accepted_stage s m s0 G) as Hst. destruct (hi_gate_accept s m s0 G) as (_ & Hf & _ & Hs0).
    assert (H0 : IE0 s0 /\ (i_stage s0 = STAGE_PENG -> exists c, i_core s0 = Some c)).
    { destruct Hs0 as [[_ ->]|(_ & _ & ->)].
      - split; [split; [exact Ha|exact Hl]|exact Hc].
      - split; [split; [exact Ha|intros x Hx; discriminate Hx]|intros H; discriminate H]. }
    destruct H0 as [H0 H3]. unfold hi_stage.
    destruct (im_stage m =? STAGE_PING) eqn:E1; [apply N.eqb_eq in E1; apply hi_ping_ie; [exact H0|congruence]|].
    destruct (im_stage m =? STAGE_PONG) eqn:E2; [apply N.eqb_eq in E2; apply hi_pong_ie; [exact H0|congruence]|].
    destruct (hi_fields_stage m Hf) as [E|[E|E]]; [rewrite E in E1; discriminate E1|rewrite E in E2; discriminate E2|].
    destruct (H3 (eq_trans Hst E)) as [c Hc0]. exact (hi_peng_ie ok s0 m c H0 Hc0).
Qed.

Definition PE (p : peer_crypto) : Prop := pc_plain p = false /\ (forall i, pc_init p = Some i -> IE i).
Definition nocl_wire (w : wire) : Prop := match w with WPlain _ => False | WInit m => noclear m | _ => True end.

Lemma pe_new : forall node salt payload key trusted al fresh rnd, a_plain al = false -> PE (pc_new node salt payload key trusted al fresh rnd).
Proof.
  intros. split; [reflexivity|]. intros i Hi. cbn [pc_new pc_init] in Hi. inversion Hi; subst i.
  split; [exact H|]. split; [intros Hs; discriminate Hs|intros m Hm; discriminate Hm].
Qed.

Lemma pe_same : forall p p', same_parts p p' -> PE p -> PE p'.
Proof. intros p p' [E1 E2 _] [Hp Hi]. split; [congruence|intros i H; rewrite E1 in H; exact (Hi i H)]. Qed.

Lemma pe_sealed : forall p ty body w, pc_plain p = false -> snd (pc_seal p ty body) = Ok w -> nocl_wire w.
Proof.
  intros p ty body w Hp. destruct (pc_seal_cases p ty body) as [(E & _)|[(_ & _ & ->)|(_ & c & _ & ->)]]; [congruence|discriminate|].
  intros H. injection H as <-. exact I.
Qed.

Lemma pe_seal : forall p ty body, PE p -> PE (fst (pc_seal p ty body)) /\ (forall w, snd (pc_seal p ty body) = Ok w -> nocl_wire w).
Proof. intros p ty body H. split; [exact (pe_same _ _ (pc_seal_parts p ty body) H)|intros w; apply pe_sealed, H]. Qed.

Lemma pe_initialize : forall p, PE p -> PE (fst (pc_initialize p)) /\ (forall w, snd (pc_initialize p) = Ok w -> nocl_wire w).
Proof.
  intros p [Hp Hi]. destruct (pc_initialize_parts p) as [(-> & e & ->)|(i & Ei & Es & -> & ->)]; [split; [split; assumption|intros w Hw; discriminate Hw]|].
  destruct (Hi i Ei) as (Ha & Hc & Hl).
  (* a ping carries no payload *)
  unfold init_send_ping, init_send. change (STAGE_PING =? STAGE_PING) with true. cbv iota.
  split; [|intros w Hw; injection Hw as <-; exact I].
  split; [exact Hp|]. intros i0 Hi0. injection Hi0 as <-.
  split; [exact Ha|]. split; [intros H; discriminate H|]. intros x Hx. injection Hx as <-. exact I.
Qed.

Lemma ie_taken : forall i, IE i -> i_stage i <> STAGE_PENG ->
  IE (upd_init i (i_ecdh i) (i_stage i) (i_close_time i) (i_last i) None (i_selected i) (i_retries i) (i_fresh i)).
Proof. intros i (Ha & Hc & Hl) Hs. split; [exact Ha|]. split; [intros H; contradiction|exact Hl]. Qed.

Lemma pe_handle : forall ok p w, PE p ->
  PE (fst (fst (pc_handle ok p w))) /\ (forall x, snd (pc_handle ok p w) = Some x -> nocl_wire x).
Proof.
  intros ok p w HPE. apply pc_handle_outcomes.
  - intros p' r S _. split; [exact (pe_same _ _ S HPE)|intros x Hx; discriminate Hx].
  - intros m i i' r reply _ Ei Eh _. destruct HPE as [Hp Hi].
    pose proof (handle_init_ie ok i m (Hi i Ei)) as (IE' & Hrep & _). rewrite Eh in IE', Hrep. cbn [fst snd] in *.
    split; [split; [exact Hp|intros i0 H0; injection H0 as <-; exact IE']|].
    intros x Hx. destruct r as [[|]|e|s]; try discriminate Hx; injection Hx as <-; (destruct reply as [rm|]; [apply Hrep; reflexivity|exact I]).
  - (* completed: there is a core, so the connection stays encrypted; what is left of the handshake object keeps no payload to send *)
    intros m i i' pl ini reply p' r x _ Ei Eh P2 P3 _ _ P5. destruct HPE as [Hp Hi].
    pose proof (handle_init_ie ok i m (Hi i Ei)) as (IE' & Hrep & Hsucc). rewrite Eh in IE', Hrep, Hsucc. cbn [fst snd] in *.
    destruct (Hsucc pl ini eq_refl) as [[c0 Hc0] Hst]. rewrite Hc0 in P3. split.
    + split; [congruence|]. intros i0 H0. rewrite P2 in H0. unfold settle in H0. destruct (_ =? CLOSING); [discriminate H0|].
      injection H0 as <-. apply ie_taken; assumption.
    + intros y Hy. destruct (P5 y Hy) as [(rm & -> & ->)|[dd ->]]; [apply Hrep; reflexivity|exact I].
Qed.

Lemma ie_every_second : forall i, IE i ->
  IE (fst (init_every_second i)) /\ (forall m, snd (init_every_second i) = Ok (Some m) -> noclear m).
Proof.
  intros i (Ha & Hc & Hl). destruct (init_every_second_frame i) as ((_ & _ & E1) & _ & E3 & E4 & E5 & E6).
  split; [|intros m Hm; exact (Hl m (E6 m Hm))].
  split; [rewrite E1; exact Ha|]. split; [|rewrite E4; exact Hl].
  rewrite E3. intros H. apply Hc. destruct E5 as [E5|E5]; rewrite E5 in H; [exact H|discriminate H].
Qed.

Lemma pe_tick : forall p, PE p ->
  PE (fst (fst (pc_every_second p))) /\ (forall x, snd (pc_every_second p) = Some x -> nocl_wire x).
Proof.
  intros p [Hp Hi]. destruct (pc_every_second_parts p) as (E & _ & Hinit & Hout). split.
  - split; [congruence|]. intros i Ei. destruct Hinit as [E0|(i0 & E0 & E1)]; rewrite ?E0, ?E1 in Ei; [discriminate Ei|].
    injection Ei as <-. apply ie_every_second, Hi, E0.
  - intros x Hx. destruct (Hout x Hx) as [(i & m & Ei & Em & ->)|(p2 & ty & b & E2 & Es)].
    + exact (proj2 (ie_every_second i (Hi i Ei)) m Em).
    + apply (pe_sealed p2 ty b); [congruence|exact Es].
Qed.

Definition NE (n : node) : Prop :=
  a_plain (c_algos (n_cfg n)) = false /\
  (forall a pc, aget (n_pending n) a = Some pc -> PE pc) /\
  (forall a pd, aget (n_peers n) a = Some pd -> PE (p_crypto pd)).
Definition nocl_eff (e : effect) : Prop := match e with XSend _ w => nocl_wire w | XWrite _ => True end.
Definition good (x : node * list effect) : Prop := NE (fst x) /\ Forall nocl_eff (snd x).

Lemma trans_good : forall salts now ev sch n fx n', trans salts now ev sch n fx n' -> NE n -> NE n' /\ Forall nocl_eff fx.
Proof.
  intros salts now ev sch n fx n' T (Hc & Hq & Hp).
  destruct (objs_trans (n_cfg n) PE PE (fun _ => True) nocl_wire) with (8 := T) as [(E & Hq' & Hp') G].
  - intros m salt Em. apply pe_new. rewrite Em. exact Hc.
  - apply pe_initialize.
  - intros p w Hpe _. destruct (pe_handle payload_ok p w Hpe) as [A B]. split; [exact (handled_same _ _ (fun _ H => H) _ _ A)|exact B].
  - intros p w Hpe _. apply pe_handle, Hpe.
  - apply pe_tick.
  - apply pe_tick.
  - apply pe_seal.
  - intros; exact I.
  - split; [reflexivity|split; assumption].
  - split; [|exact G]. split; [rewrite E; exact Hc|split; assumption].
Qed.

Theorem step_good : forall salts now n e, NE n -> good (step salts now n e).
Proof. intros salts now n e. apply (step_keeps_fx salts now e NE nocl_eff). apply trans_good. Qed.

Lemma node_new_ne : forall c now, a_plain (c_algos c) = false -> NE (node_new c now).
Proof. intros c now H. split; [exact H|]. split; intros a x Hx; discriminate Hx. Qed.

Fixpoint nrun_fx (salts : list (N * N)) (n : node) (evs : list (Z * event)) : list effect :=
  match evs with
  | [] => []
  | (now, e) :: t => snd (step salts now n e) ++ nrun_fx salts (fst (step salts now n e)) t
  end.

Theorem reachable_ne : forall salts evs n, NE n -> NE (nrun salts n evs) /\ Forall nocl_eff (nrun_fx salts n evs).
Proof.
  intros salts evs. induction evs as [|[now e] t IH]; intros n H; [split; [exact H|constructor]|]. cbn [nrun nrun_fx].
  pose proof (step_good salts now n e H) as [G1 G2]. destruct (IH _ G1) as [I1 I2]. split; [exact I1|apply Forall_app; split; assumption].
Qed.

(* C02 / C06: spelled out *)
Theorem no_cleartext_ever : forall salts c t0 evs, a_plain (c_algos c) = false ->
  (forall dst w, In (XSend dst w) (nrun_fx salts (node_new c t0) evs) ->
     match w with
     | WPlain _ => False                                             (* never an unencrypted message *)
     | WInit m => match im_payload m with Some (PPlain _) => False | _ => True end   (* node information in a handshake message: absent or sealed *)
     | _ => True
     end) /\
  (forall a pd, aget (n_peers (nrun salts (node_new c t0) evs)) a = Some pd -> pc_plain (p_crypto pd) = false).
Proof.
  intros salts c t0 evs Hc. destruct (reachable_ne salts evs (node_new c t0) (node_new_ne c t0 Hc)) as [H1 H2]. split.
  - intros dst w Hin. rewrite Forall_forall in H2. specialize (H2 _ Hin). cbn [nocl_eff] in H2. destruct w; try exact I; exact H2.
  - intros a pd Ha. destruct H1 as (_ & _ & Hp). apply (Hp a pd Ha).
Qed.

(* non-vacuity: the example node of NextHopProofs (plain not allowed) emits a handshake message with a sealed payload *)
Lemma ex_sealed_payload : a_plain (c_algos cB) = false /\
  existsb (fun e => match e with XSend _ (WInit m) => match im_payload m with Some (PSealed _) => true | _ => false end | _ => false end)
          (nrun_fx salts (node_new cB 1) ex_evs) = true.
Proof. split; vm_compute; reflexivity. Qed.
