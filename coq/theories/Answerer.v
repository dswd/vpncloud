(* Which connection object answers a datagram.  handle_net (handle_socket_event / handle_net_message in cloud.rs) hands the datagram
   to the pending handshake at the source address, to the established peer's object, or to a handshake object made for the occasion,
   and stores the object back where it lives (`put`; a fresh object is counted in `n_objs` whether or not it is kept: `origin`).
   `rejected` is what an error or a panic leaves; `answerer_object` is where the proofs read the three cases from. *)
From VpnModel Require Import Base PeerCrypto Node.

Definition with_crypto (pd : peer_data) (pc : peer_crypto) : peer_data :=
  {| p_addrs := p_addrs pd; p_timeout := p_timeout pd; p_peer_timeout := p_peer_timeout pd; p_node := p_node pd; p_crypto := pc |}.

(* where the object lives: in the pending map (`fresh`: made for this datagram, not in the map yet) or in a peer entry *)
Inductive place := InPending (fresh : bool) | InPeers (pd : peer_data).

Section Answerer.
Variables (salts : list (N * N)) (now : Z).

Definition fresh_object (n : node) (src : N) : peer_crypto := snd (new_instance n (salt_for salts (c_num (n_cfg n)) src)).

Definition origin (n : node) (src : N) (fresh : bool) : node :=
  if fresh then fst (new_instance n (salt_for salts (c_num (n_cfg n)) src)) else n.

Definition answerer (n : node) (src : N) (w : wire) : option (place * peer_crypto) :=
  match (if is_init_wire w || negb (ahas (n_peers n) src) then aget (n_pending n) src else None) with
  | Some pc => Some (InPending false, pc)
  | None =>
      match aget (n_peers n) src with
      | Some pd => if negb (is_init_wire w) || pc_has_init (p_crypto pd) then Some (InPeers pd, p_crypto pd)
                   else Some (InPending true, fresh_object n src)
      | None => if is_init_wire w then Some (InPending true, fresh_object n src) else None
      end
  end.

Definition put (n : node) (src : N) (pl : place) (pc' : peer_crypto) : node :=
  match pl with
  | InPending fresh => let m := origin n src fresh in upd m (n_peers m) (aset (n_pending m) src pc') (n_own m) (n_table m)
  | InPeers pd => upd n (aset (n_peers n) src (with_crypto pd pc')) (n_pending n) (n_own n) (n_table n)
  end.

(* error 2 is the fatal one: the pending entry is deleted *)
Definition rejected (n : node) (src : N) (pl : place) (pc' : peer_crypto) (r : res msg_result) : node :=
  match pl, r with
  | InPending false, Err c => let n2 := with_invalid (put n src pl pc') in
                              if c =? 2 then upd n2 (n_peers n2) (adel (n_pending n2) src) (n_own n2) (n_table n2) else n2
  | InPending true, Err _ => with_invalid (origin n src true)
  | InPending true, _ => origin n src true
  | _, Err _ => with_invalid (put n src pl pc')
  | _, _ => put n src pl pc'
  end.

Lemma handle_net_eq : forall n src w,
  handle_net salts now n src w =
  match answerer n src w with
  | None => (with_invalid n, [])
  | Some (pl, pc) =>
      let '(pc', r, reply) := pc_handle payload_ok pc w in
      match r with
      | Ok res => handle_result salts now (put n src pl pc') src res reply
      | _ => (rejected n src pl pc' r, [])
      end
  end.
Proof.
  intros n src w. unfold handle_net, answerer.
  destruct (if is_init_wire w || negb (ahas (n_peers n) src) then aget (n_pending n) src else None) as [pc|].
  - destruct (pc_handle payload_ok pc w) as [[pc' [res|c|s]] reply]; try reflexivity. cbn [rejected]. destruct (c =? 2); reflexivity.
  - destruct (is_init_wire w), (aget (n_peers n) src) as [pd|]; cbn [negb orb]; try reflexivity.
    + destruct (pc_has_init (p_crypto pd)); [destruct (pc_handle payload_ok (p_crypto pd) w) as [[pc' [res|c|s]] reply]; reflexivity|].
      unfold fresh_object, new_instance. cbn [fst snd]. destruct (pc_handle payload_ok _ w) as [[pc' [res|c|s]] reply]; reflexivity.
    + unfold fresh_object, new_instance. cbn [fst snd]. destruct (pc_handle payload_ok _ w) as [[pc' [res|c|s]] reply]; reflexivity.
    + destruct (pc_handle payload_ok (p_crypto pd) w) as [[pc' [res|c|s]] reply]; reflexivity.
Qed.

Lemma answerer_object : forall n src w pl pc, answerer n src w = Some (pl, pc) ->
  match pl with
  | InPending false => aget (n_pending n) src = Some pc
  | InPending true => pc = fresh_object n src /\ is_init_wire w = true /\ aget (n_pending n) src = None
  | InPeers pd => aget (n_peers n) src = Some pd /\ pc = p_crypto pd /\ (is_init_wire w = true -> aget (n_pending n) src = None)
  end.
Proof.
  intros n src w pl pc. unfold answerer.
  destruct (is_init_wire w); cbn [orb negb].
  - destruct (aget (n_pending n) src) as [pc0|]; [intros H; inversion H; reflexivity|].
    destruct (aget (n_peers n) src) as [pd|]; [destruct (pc_has_init (p_crypto pd))|]; intros H; inversion H; repeat split; reflexivity.
  - destruct (if negb (ahas (n_peers n) src) then aget (n_pending n) src else None) as [pc0|] eqn:E.
    + intros H. inversion H; subst. destruct (negb (ahas (n_peers n) src)); [exact E|discriminate E].
    + destruct (aget (n_peers n) src) as [pd|]; intros H; inversion H. repeat split. intros K. discriminate K.
Qed.

Lemma origin_rest : forall n src fresh, n_cfg (origin n src fresh) = n_cfg n /\ n_peers (origin n src fresh) = n_peers n /\
  n_pending (origin n src fresh) = n_pending n /\ n_own (origin n src fresh) = n_own n /\ n_table (origin n src fresh) = n_table n.
Proof. intros n src []; repeat split; reflexivity. Qed.

Lemma put_rest : forall n src pl pc', n_cfg (put n src pl pc') = n_cfg n /\ n_own (put n src pl pc') = n_own n /\ n_table (put n src pl pc') = n_table n.
Proof. intros n src [[]|pd] pc'; repeat split; reflexivity. Qed.

Lemma rejected_rest : forall n src pl pc' r, (forall res, r <> Ok res) ->
  n_cfg (rejected n src pl pc' r) = n_cfg n /\ n_peers (rejected n src pl pc' r) = n_peers (put n src pl pc') /\
  n_own (rejected n src pl pc' r) = n_own n /\ n_table (rejected n src pl pc' r) = n_table n.
Proof.
  intros n src pl pc' [res|c|s] H; [destruct (H res eq_refl)| |]; destruct pl as [[]|pd]; cbn [rejected]; try (repeat split; reflexivity).
  destruct (c =? 2); repeat split; reflexivity.
Qed.
End Answerer.
