(* C01 over whole runs: every peer a node has in any reachable state was admitted by a handshake message that arrived from that very
   address and verified under a key of the node's trusted list (own key if none is configured). *)
From VpnModel Require Import Base Conn InitSteps PeerCrypto Node TrustProofs NodeSteps NextHopProofs PcInvariant.

(* handshake objects keep the trusted list and the node number they were created with *)
Definition own_id (c : ncfg) (i : init_state) : Prop := i_trusted i = eff_trusted c /\ i_node i = c_num c.

Lemma own_id_ident : forall c s s', same_ident s s' -> own_id c s -> own_id c s'.
Proof. intros c s s' (E1 & E2 & _) [H1 H2]. split; congruence. Qed.

Lemma own_id_new : forall n salt i, pc_init (snd (new_instance n salt)) = Some i -> own_id (n_cfg n) i.
Proof. intros n salt i H. injection H as <-. split; reflexivity. Qed.

Lemma reachable_own_id : forall c salts t0 evs, AllPC (created own_id) c (nrun salts (node_new c t0) evs).
Proof. intros c salts t0 evs. apply nrun_inv0; [intros now e n; apply (step_created own_id own_id_ident own_id_new)|apply objs_new]. Qed.

Theorem reachable_ti : forall c salts t0 evs,
  let n := nrun salts (node_new c t0) evs in
  n_cfg n = c /\
  (forall a pc i, aget (n_pending n) a = Some pc -> pc_init pc = Some i -> i_trusted i = eff_trusted c) /\
  (forall a pd i, aget (n_peers n) a = Some pd -> pc_init (p_crypto pd) = Some i -> i_trusted i = eff_trusted c).
Proof.
  intros c salts t0 evs n. destruct (reachable_own_id c salts t0 evs) as (H1 & H2 & H3).
  split; [exact H1|]. split; [intros a pc i Ha Hi; exact (proj1 (H2 a pc Ha i Hi))|intros a pd i Ha Hi; exact (proj1 (H3 a pd Ha i Hi))].
Qed.

Definition nonew (n n' : node) : Prop := forall a, ahas (n_peers n') a = true -> ahas (n_peers n) a = true.
Lemma nonew_refl : forall n, nonew n n. Proof. intros n a H. exact H. Qed.
Lemma nonew_trans : forall a b c, nonew a b -> nonew b c -> nonew a c. Proof. intros a b c H1 H2 x H. apply H1, H2, H. Qed.

Lemma trans_nonew : forall salts now ev sch n fx n', (forall src w, ev <> ENet src w) -> trans salts now ev sch n fx n' -> nonew n n'.
Proof.
  intros salts now ev sch n fx n' He T a. destruct T; try exact (fun H => H); try (exfalso; exact (He _ _ Hev)); cbn [upd n_peers].
  (* left, in the order of `trans`: t_refresh, t_tick_peer, t_seal, t_remove *)
  - rewrite (ahas_aset_present _ _ _ _ _ _ Hget). exact (fun H => H).
  - rewrite (ahas_aset_present _ _ _ _ _ _ Hget). exact (fun H => H).
  - rewrite (ahas_aset_present _ _ _ _ _ _ Hget). exact (fun H => H).
  - apply ahas_adel.
Qed.

Lemma step_nonew : forall salts now n e, (forall src w, e <> ENet src w) -> nonew n (fst (step salts now n e)).
Proof.
  intros salts now n e He. refine (step_keeps salts now e (nonew n) _ n (nonew_refl n)).
  intros m fx m' T H. exact (nonew_trans _ _ _ H (trans_nonew _ _ _ _ _ _ _ He T)).
Qed.

Lemma housekeep_nonew : forall salts now n, nonew n (fst (housekeep salts now n)).
Proof. intros salts now n. apply (step_nonew salts now n EHousekeep). intros src w H. discriminate H. Qed.

Lemma step_new_peer : forall salts now n e a, ahas (n_peers n) a = false -> ahas (n_peers (fst (step salts now n e))) a = true ->
  exists w pc pc' r reply, e = ENet a w /\ answering_object salts n a pc /\ pc_handle payload_ok pc w = (pc', Ok r, reply) /\ is_initialized r = true.
Proof.
  intros salts now n e a Hno H. destruct e as [src w|f| |x|addrs]; try (apply step_nonew in H; [congruence|discriminate]).
  destruct (peer_creation_by_completion salts now n src w a Hno H) as (-> & pc & pc' & r & reply & G).
  exists w, pc, pc', r, reply. split; [reflexivity|exact G].
Qed.

Lemma new_peer_admitted : forall c salts now n e a, AllPC (created own_id) c n ->
  ahas (n_peers n) a = false -> ahas (n_peers (fst (step salts now n e))) a = true ->
  exists m, e = ENet a (WInit m) /\ existsb (N.eqb (im_signer m)) (eff_trusted c) = true /\ im_node m <> c_num c.
Proof.
  intros c salts now n e a Hn Hno H.
  destruct (step_new_peer salts now n e a Hno H) as (w & pc & pc' & r & reply & -> & Hobj & Hh & Hi).
  destruct (pc_completion _ _ _ _ _ _ Hh Hi) as (i & m & -> & Hpi & Ht & Hne).
  destruct (created_answering own_id own_id_new c salts n a pc i Hn Hobj Hpi) as [E1 E2].
  exists m. split; [reflexivity|]. rewrite <- E1, <- E2. split; assumption.
Qed.

(* C01 and C14, whole runs: every peer of every reachable state was admitted by a handshake message that arrived from that very
   address, verified under a key of the configured trusted list and carried another node's id *)
Theorem every_peer_admitted : forall salts c t0 evs a,
  ahas (n_peers (nrun salts (node_new c t0) evs)) a = true ->
  exists now m, In (now, ENet a (WInit m)) evs /\ existsb (N.eqb (im_signer m)) (eff_trusted c) = true /\ im_node m <> c_num c.
Proof.
  intros salts c t0 evs a H.
  destruct (nrun_since salts (AllPC (created own_id) c) (fun n => ahas (n_peers n) a)
              (fun now e n => step_created own_id own_id_ident own_id_new c salts now n e) evs _ (objs_new c _ _ t0) H)
    as [H0|(now & e & m & Hin & Hm & E & H1)]; [discriminate H0|].
  destruct (new_peer_admitted c salts now m e a Hm E H1) as (msg & -> & Hq). exists now, msg. split; assumption.
Qed.

Theorem every_peer_was_admitted : forall salts c t0 evs a,
  ahas (n_peers (nrun salts (node_new c t0) evs)) a = true ->
  exists now m, In (now, ENet a (WInit m)) evs /\ existsb (N.eqb (im_signer m)) (eff_trusted c) = true.
Proof. intros salts c t0 evs a H. destruct (every_peer_admitted salts c t0 evs a H) as (now & m & A & B & _). exists now, m. auto. Qed.
