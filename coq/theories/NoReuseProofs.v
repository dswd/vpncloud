(* C04: no (key, nonce) pair is ever used twice — invariant over every history of a CryptoCore. *)
From VpnModel Require Import Base Nonce NonceProofs Core CoreProofs.

Inductive cop := CSeal (p : bytes) | COpen (d : dgram) | CRot (k id : N) (use : bool) (r : bytes) | CTick.

(* what a core seals: (key, nonce value) of every encrypt, newest first *)
Definition cstep (st : core * list (N * N)) (o : cop) : core * list (N * N) :=
  let '(c, log) := st in
  match o with
  | CSeal p => let s := get_slot c (current c) in
               (fst (core_encrypt c p), (s_key s, be_val (nonce_increment (s_send s))) :: log)
  | COpen d => (fst (core_decrypt c d), log)
  | CRot k id use r => (core_rotate c k id use r, log)
  | CTick => (core_tick c, log)
  end.
Definition crun (st : core * list (N * N)) (h : list cop) := fold_left cstep h st.

(* the premise on the environment: a rotated-in key was never sealed under before (it comes out of a
   fresh ECDH exchange), and the 6 random start bytes are bytes *)
Fixpoint fresh_rotations (st : core * list (N * N)) (h : list cop) : Prop :=
  match h with
  | [] => True
  | o :: t => match o with
              | CRot k _ _ r => ~ In k (map fst (snd st)) /\ all_bytes r /\ length r = 6%nat
              | _ => True
              end /\ fresh_rotations (cstep st o) t
  end.

Definition view (c : core) : N * bytes := (s_key (get_slot c (current c)), s_send (get_slot c (current c))).
Definition hoff (h : bool) : N := if h then 2 ^ 95 else 0.

Lemma view_enc : forall c p, wf_core c -> view (fst (core_encrypt c p)) = (fst (view c), nonce_increment (snd (view c))).
Proof. intros c p Hwf. unfold core_encrypt, view. cbn [fst snd set_slot current]. rewrite get_set_same by apply Hwf. reflexivity. Qed.

Lemma view_dec : forall c d, wf_core c ->
  view (fst (core_decrypt c d)) = view c /\ half (fst (core_decrypt c d)) = half c.
Proof.
  intros c d Hwf. destruct (dec_preserves c d Hwf) as (_ & Ec & Eh & K). split; [|exact Eh].
  unfold view. rewrite Ec. destruct (K (current c)) as [-> ->]. reflexivity.
Qed.

Lemma view_tick : forall c, wf_core c -> view (core_tick c) = view c.
Proof.
  intros c [Hl Hc]. unfold view. cbn [core_tick current]. rewrite tick_all_slots.
  rewrite (proj2 (Nat.ltb_lt _ _)) by lia. reflexivity.
Qed.

Lemma view_rot : forall c k id use r, wf_core c ->
  view (core_rotate c k id use r) = view c \/ view (core_rotate c k id use r) = (k, nonce_start (half c) r).
Proof.
  intros c k id use r Hwf. destruct (rotate_fresh_window c k id use r Hwf) as (G1 & G2 & G3).
  unfold view. rewrite G3. destruct use; [right; rewrite G1; reflexivity|].
  destruct (N.eq_dec (current c) (id mod 4)) as [E|E]; [right; rewrite E, G1|left; rewrite G2 by exact E]; reflexivity.
Qed.

(* the invariant: counter in the sender's own half within 2^48 + m of its base; every logged pair is
   in that half; pairs under the current key are at or below the counter; no pair twice *)
Definition NInv (hf : bool) (v : N * bytes) (log : list (N * N)) (m : N) : Prop :=
  all_bytes (snd v) /\ length (snd v) = 12%nat /\
  hoff hf <= be_val (snd v) < hoff hf + 2 ^ 48 + m /\
  NoDup log /\
  (forall k x, In (k, x) log -> in_half hf x) /\
  (forall x, In (fst v, x) log -> x <= be_val (snd v)).

Lemma ninv_seal : forall hf k s log m, m < 2 ^ 95 - 2 ^ 48 -> NInv hf (k, s) log m ->
  NInv hf (k, nonce_increment s) ((k, be_val (nonce_increment s)) :: log) (m + 1).
Proof.
  intros hf k s log m Hm (Hb & Hl & Hr & Hn & Hh & Hle). cbn [fst snd] in *.
  assert (Hv : be_val (nonce_increment s) = be_val s + 1).
  { rewrite increment_spec by exact Hb. rewrite Hl. change (256 ^ N.of_nat 12) with (2 ^ 96).
    apply N.mod_small. unfold hoff in Hr. destruct hf; lia. }
  unfold NInv. cbn [fst snd]. rewrite Hv.
  split; [apply increment_bytes; exact Hb|]. split; [rewrite increment_length; exact Hl|].
  split; [lia|]. split; [|split].
  - constructor; [|exact Hn]. intro Hin. apply Hle in Hin. lia.
  - intros k' x [E|Hin]; [|eapply Hh; exact Hin]. inversion E; subst. unfold in_half, hoff in *. destruct hf; lia.
  - intros x [E|Hin]; [inversion E; lia|]. apply Hle in Hin. lia.
Qed.

Lemma ninv_start : forall hf k r log m, all_bytes r -> length r = 6%nat -> NoDup log ->
  (forall k' x, In (k', x) log -> in_half hf x) -> ~ In k (map fst log) -> NInv hf (k, nonce_start hf r) log m.
Proof.
  intros hf k r log m Hrb Hrl Hn Hh Hfresh. destruct (start_value hf r Hrb Hrl) as (V & B & A & L).
  unfold NInv, hoff. cbn [fst snd]. rewrite V.
  split; [exact A|]. split; [exact L|]. split; [lia|]. split; [exact Hn|]. split; [exact Hh|].
  intros x Hin. destruct Hfresh. apply (in_map fst) in Hin. exact Hin.
Qed.

Lemma ninv_weaken : forall hf v log m m', m <= m' -> NInv hf v log m -> NInv hf v log m'.
Proof. intros hf v log m m' Hm (Hb & Hl & Hr & Hn & Hh & Hle). unfold NInv. repeat split; try assumption; lia. Qed.

(* one operation; only a seal needs the room, every other operation keeps the counter or restarts it *)
Lemma cstep_inv : forall c log m o c' log', wf_core c -> NInv (half c) (view c) log m -> m < 2 ^ 95 - 2 ^ 48 ->
  match o with CRot k _ _ r => ~ In k (map fst log) /\ all_bytes r /\ length r = 6%nat | _ => True end ->
  cstep (c, log) o = (c', log') ->
  wf_core c' /\ half c' = half c /\ NInv (half c) (view c') log' (m + 1).
Proof.
  intros c log m o c' log' Hwf Hinv Hm Ho.
  assert (Hinv1 : NInv (half c) (view c) log (m + 1)) by (apply (ninv_weaken _ _ _ m); [lia|exact Hinv]).
  destruct o as [p|d|k id use r|]; cbn [cstep]; intros [<- <-]%pair_equal_spec.
  - split; [apply wf_encrypt, Hwf|]. split; [reflexivity|]. rewrite view_enc by exact Hwf. exact (ninv_seal _ _ _ _ _ Hm Hinv).
  - split; [apply wf_decrypt, Hwf|]. destruct (view_dec c d Hwf) as [-> ->]. split; [reflexivity|exact Hinv1].
  - split; [apply wf_rotate, Hwf|]. split; [reflexivity|].
    destruct (view_rot c k id use r Hwf) as [-> | ->]; [exact Hinv1|]. destruct Ho as (Hfresh & Hrb & Hrl).
    apply ninv_start; [exact Hrb|exact Hrl|apply Hinv|apply Hinv|exact Hfresh].
  - split; [apply wf_tick, Hwf|]. split; [reflexivity|]. rewrite view_tick by exact Hwf. exact Hinv1.
Qed.

Lemma crun_inv : forall h c log m, wf_core c -> NInv (half c) (view c) log m ->
  m + N.of_nat (length h) <= 2 ^ 95 - 2 ^ 48 -> fresh_rotations (c, log) h ->
  let st := crun (c, log) h in
  wf_core (fst st) /\ half (fst st) = half c /\ NInv (half c) (view (fst st)) (snd st) (m + N.of_nat (length h)).
Proof.
  induction h as [|o t IH]; intros c log m Hwf Hinv Hm Hfr.
  - cbn [crun fold_left fst snd length]. rewrite N.add_0_r. split; [exact Hwf|]. split; [reflexivity|exact Hinv].
  - destruct Hfr as [Ho Hfr]. cbn [length] in Hm. cbn [crun fold_left]. destruct (cstep (c, log) o) as [c' log'] eqn:E.
    destruct (cstep_inv c log m o c' log' Hwf Hinv) as (Hw' & Hh' & Hi'); [lia|exact Ho|exact E|].
    rewrite <- Hh' in *. replace (m + N.of_nat (length (o :: t))) with (m + 1 + N.of_nat (length t)) by (cbn [length]; lia).
    apply IH; [exact Hw'|exact Hi'|lia|exact Hfr].
Qed.

(* C04 headline: for every history of seals, opens, ticks and rotations to fresh keys, of any length
   below 2^95 - 2^48, no two seals used the same (key, nonce), and all nonces lie in the sender's half *)
Theorem no_nonce_reuse : forall k dummy hf r0 r1 r2 r3 h, all_bytes r0 -> length r0 = 6%nat ->
  N.of_nat (length h) <= 2 ^ 95 - 2 ^ 48 ->
  let c0 := core_new k dummy hf r0 r1 r2 r3 in
  fresh_rotations (c0, []) h ->
  NoDup (snd (crun (c0, []) h)) /\ forall key x, In (key, x) (snd (crun (c0, []) h)) -> in_half hf x.
Proof.
  intros k dummy hf r0 r1 r2 r3 h Hb Hl Hlen c0 Hfr.
  assert (Hinv : NInv hf (view c0) [] 0) by (apply ninv_start; [exact Hb|exact Hl|constructor|intros k' x []|intros []]).
  destruct (crun_inv h c0 [] 0 (core_new_wf _ _ _ _ _ _ _) Hinv) as (_ & _ & (_ & _ & _ & Hn & Hh & _)); [lia|exact Hfr|].
  exact (conj Hn Hh).
Qed.

(* the two ends of a connection (opposite halves, possibly the same key) never collide *)
Theorem ends_disjoint : forall x, in_half true x -> in_half false x -> False.
Proof. unfold in_half. intros x H1 H2. lia. Qed.
