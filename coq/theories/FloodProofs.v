(* C10 / C11 node clause: a frame that is flooded (unknown destination in switch / hub mode, or a broadcast) goes to every peer exactly
   once.  Needs two facts about every reachable node state: the peer map lists no address twice (TickPeersProofs.ND) and every peer's
   connection object can seal (SE: it is in unencrypted mode or holds a crypto core). *)
From VpnModel Require Import Base BaseProofs Table Conn PcSteps PeerCrypto Node NodeProofs TrustProofs NodeSteps PcInvariant NextHopProofs TickPeersProofs.

Definition sendable (p : peer_crypto) : Prop := pc_plain p = true \/ exists c, pc_core p = Some c.

Lemma sendable_move : forall p p', pc_plain p' = pc_plain p -> omove (pc_core p) (pc_core p') -> sendable p -> sendable p'.
Proof.
  intros p p' Ep M [H|[c Hc]]; [left; congruence|right]. rewrite Hc in M. destruct (pc_core p') as [c'|]; [exists c'; reflexivity|destruct M].
Qed.

Lemma sendable_seal : forall p ty body, sendable p -> sendable (fst (pc_seal p ty body)) /\ exists w, snd (pc_seal p ty body) = Ok w.
Proof.
  intros p ty body H. split; [destruct (pc_seal_parts p ty body) as [_ E M]; exact (sendable_move _ _ E M H)|].
  destruct (pc_seal_cases p ty body) as [(_ & ->)|[(Ep & Ec & _)|(_ & c & _ & ->)]]; [eexists; reflexivity| |eexists; reflexivity].
  destruct H as [H|[c Hc]]; congruence.
Qed.

Lemma sendable_handle : forall ok p w,
  (sendable p -> sendable (fst (fst (pc_handle ok p w)))) /\
  (forall r, snd (fst (pc_handle ok p w)) = Ok r -> is_initialized r = true -> sendable (fst (fst (pc_handle ok p w)))).
Proof.
  intros ok p w. apply pc_handle_outcomes.
  - intros p' r [_ E M] Q. cbn [fst snd]. split; [apply sendable_move; assumption|]. intros r0 -> Hi. destruct r0; try discriminate Hi; destruct Q.
  - intros m i i' r reply _ _ _ Hr. cbn [fst snd]. split; [exact (fun H => H)|]. intros r0 E Hi. destruct r as [[|]|e|s]; try discriminate E; [|destruct Hr].
    injection E as <-. discriminate Hi.
  - (* completed: the connection took the prepared core, or went plain for want of one *)
    intros m i i' pl ini reply p' r x _ _ _ _ Ep M _ _. cbn [fst snd].
    assert (G : sendable p') by (destruct (i_core i') as [c|]; [right; destruct (pc_core p') as [c'|]; [exists c'; reflexivity|destruct M]|left; exact Ep]).
    split; intros; exact G.
Qed.

Lemma sendable_tick : forall p, sendable p -> sendable (fst (fst (pc_every_second p))).
Proof. intros p. destruct (pc_every_second_parts p) as (E & M & _). exact (sendable_move _ _ E M). Qed.

Definition SEp (l : list (N * peer_data)) : Prop := forall a pd, aget l a = Some pd -> sendable (p_crypto pd).
Definition SE (n : node) : Prop := SEp (n_peers n).

(* SE is the object invariant with nothing asked of pending objects: a handshake that completes leaves an object that can seal *)
Lemma se_objs : forall n, SE n <-> Objs (n_cfg n) (fun _ => True) sendable n.
Proof. intros n. split; [intros H; split; [reflexivity|split; [intros; exact I|exact H]]|intros (_ & _ & H); exact H]. Qed.

Lemma trans_se : forall salts now ev sch n fx n', trans salts now ev sch n fx n' -> SE n -> SE n'.
Proof.
  intros salts now ev sch n fx n' T H. apply se_objs in H.
  assert (G : Objs (n_cfg n) (fun _ => True) sendable n').
  { refine (objs_trans_quiet (n_cfg n) (fun _ => True) sendable _ _ _ _ _ _ _ salts now ev sch n fx n' T H); try (intros; exact I).
    - intros p w _. pose proof (proj2 (sendable_handle payload_ok p w)) as S. unfold handled.
      destruct (snd (fst (pc_handle payload_ok p w))) as [res| |]; [|intros; exact I|exact I].
      destruct (is_initialized res) eqn:Hi; [exact (S res eq_refl Hi)|exact I].
    - intros p w. apply sendable_handle.
    - apply sendable_tick.
    - intros p ty b Hp. apply sendable_seal, Hp. }
  destruct G as (_ & _ & G). exact G.
Qed.

Theorem step_se : forall salts now n e, SE n -> SE (fst (step salts now n e)).
Proof. intros salts now n e. apply step_keeps. apply trans_se. Qed.

Theorem reachable_se : forall salts c t0 evs, SE (nrun salts (node_new c t0) evs) /\ ND (nrun salts (node_new c t0) evs).
Proof.
  intros salts c t0 evs. split; [|apply reachable_nd].
  apply nrun_inv0; [intros now e n; apply step_se|intros a pd Ha; discriminate Ha].
Qed.

Definition seal_fx (ty : N) (body : bytes) (e : N * peer_data) : list effect :=
  match snd (pc_send (p_crypto (snd e)) ty body) with Ok w => [XSend (fst e) w] | _ => [] end.

Lemma aget_head_nodup : forall (A : Type) (k : N) (v : A) t, aget ((k, v) :: t) k = Some v.
Proof. intros. cbn [aget]. rewrite N.eqb_refl. reflexivity. Qed.

Lemma send_data_fx : forall m k v ty body, aget (n_peers m) k = Some v -> snd (send_data m k ty body) = seal_fx ty body (k, v).
Proof.
  intros m k v ty body H. unfold send_data, seal_fx. rewrite H. cbn [fst snd]. destruct (pc_send (p_crypto v) ty body) as [pc' [w|e|s]]; reflexivity.
Qed.

Lemma send_data_other : forall m k ty body k', k' <> k -> aget (n_peers (fst (send_data m k ty body))) k' = aget (n_peers m) k'.
Proof.
  intros m k ty body k' Hne. unfold send_data. destruct (aget (n_peers m) k) as [pd|]; [|reflexivity].
  destruct (pc_send (p_crypto pd) ty body) as [pc' [w|e|s]]; try reflexivity. cbn [fst upd n_peers]. apply aget_aset_other. congruence.
Qed.

(* the fold of broadcast over a suffix l of the peer list: entries of l are still the original ones in the current map *)
Lemma broadcast_fold : forall ty body l m fx, NoDup (keys l) ->
  (forall k v, In (k, v) l -> aget (n_peers m) k = Some v) ->
  snd (fold_left (fun (acc : node * list effect) (e : N * peer_data) => let '(m, fx) := acc in let '(m', fx') := send_data m (fst e) ty body in (m', fx ++ fx')) l (m, fx))
  = fx ++ flat_map (seal_fx ty body) l.
Proof.
  intros ty body. induction l as [|[k v] t IH]; intros m fx Hnd Hin; cbn [fold_left flat_map]; [rewrite app_nil_r; reflexivity|].
  inversion Hnd as [|? ? Hnin Hnd']; subst. cbn [fst]. rewrite pair_app, IH.
  - rewrite (send_data_fx m k v) by (apply Hin; left; reflexivity). apply app_assoc_reverse.
  - exact Hnd'.
  - intros k' v' Hin'. rewrite send_data_other; [apply Hin; right; exact Hin'|]. intros ->. exact (Hnin (in_map fst _ _ Hin')).
Qed.

Lemma aget_of_in : forall (A : Type) (l : list (N * A)) k v, NoDup (keys l) -> In (k, v) l -> aget l k = Some v.
Proof.
  intros A l k v. induction l as [|[k' v'] t IH]; intros Hnd Hin; [destruct Hin|].
  inversion Hnd as [|? ? Hnin Hnd']; subst. cbn [aget]. destruct Hin as [Heq|Hin].
  - inversion Heq; subst. rewrite N.eqb_refl. reflexivity.
  - destruct (k =? k') eqn:E; [|apply IH; assumption]. apply N.eqb_eq in E. subst k'. exfalso. apply Hnin.
    change k with (fst (k, v)). apply in_map. exact Hin.
Qed.

Theorem broadcast_exact : forall n ty body, NoDup (keys (n_peers n)) ->
  snd (broadcast n ty body) = flat_map (seal_fx ty body) (n_peers n).
Proof.
  intros n ty body Hnd. unfold broadcast. rewrite broadcast_fold; [reflexivity|exact Hnd|].
  intros k v Hin. apply aget_of_in; assumption.
Qed.

Definition dst_of (e : effect) : option N := match e with XSend d _ => Some d | XWrite _ => None end.

Theorem broadcast_every_peer_once : forall n ty body, NoDup (keys (n_peers n)) -> SE n ->
  map dst_of (snd (broadcast n ty body)) = map (fun e => Some (fst e)) (n_peers n).
Proof.
  intros n ty body Hnd Hse. rewrite broadcast_exact by exact Hnd.
  assert (G : forall l, (forall k v, In (k, v) l -> sendable (p_crypto v)) ->
              map dst_of (flat_map (seal_fx ty body) l) = map (fun e => Some (fst e)) l).
  { induction l as [|[k v] t IH]; intros H; [reflexivity|]. cbn [flat_map map]. rewrite map_app, IH by (intros k' v' Hin; apply (H k' v'); right; exact Hin).
    unfold seal_fx, pc_send. cbn [fst snd]. destruct (sendable_seal (p_crypto v) ty body (H k v (or_introl eq_refl))) as [_ [w Hw]]. rewrite Hw. reflexivity. }
  apply G. intros k v Hin. apply (Hse k v). apply aget_of_in; assumption.
Qed.

(* C10 / C11 node clause, for every reachable state: a frame whose destination the table does not know is, in a flooding mode,
   sent to every peer exactly once and written nowhere; in router mode it causes nothing and is counted (iface_unknown_router_drops) *)
Theorem reachable_flood_every_peer_once : forall salts c t0 evs now frame s d t',
  let n := nrun salts (node_new c t0) evs in
  parse_frame (n_cfg n) frame = Ok (s, d) -> table_lookup (n_table n) now d = (None, t') -> c_broadcast (n_cfg n) = true ->
  map dst_of (snd (handle_iface salts now n frame)) = map (fun e => Some (fst e)) (n_peers n).
Proof.
  intros salts c t0 evs now frame s d t' n Hp Hl Hb. destruct (reachable_se salts c t0 evs) as [Hse [Hnd _]]. fold n in Hse, Hnd.
  unfold handle_iface. rewrite Hp, Hl, Hb.
  apply (broadcast_every_peer_once (upd n (n_peers n) (n_pending n) (n_own n) t') MESSAGE_TYPE_DATA frame); assumption.
Qed.

(* non-vacuity: the example state of NextHopProofs floods to its one peer *)
Lemma ex_flood : map dst_of (snd (broadcast ex_b MESSAGE_TYPE_DATA [1;2;3])) = [Some 1001].
Proof. vm_compute. reflexivity. Qed.
