(* C12 at node level: whenever a node processes an announcement (node information) of a connected peer - in a NODE_INFO message or
   as the payload that completes a handshake - the claims attributed to that peer become exactly the announced ones, with a fresh
   expiry; other peers' live claims are untouched. *)
From VpnModel Require Import Base Table TableProofs PeerCrypto NodeInfo Node NodeProofs.

Lemma connect_to_peers_table : forall salts ps n, n_table (fst (connect_to_peers salts n ps)) = n_table n.
Proof. intros salts ps n. exact (f_equal snd (connect_to_peers_keeps salts ps n)). Qed.

Definition claims_exactly (t' t : table) (now : Z) (addr : N) (announced : list (bytes * N)) : Prop :=
  (forall r, (exists c, In c (claims t') /\ c_peer c = addr /\ crange c = r) <-> In r announced) /\
  (forall c, In c (claims t') -> c_peer c = addr -> c_timeout c = (now + claim_timeout t)%Z) /\
  (forall c, c_peer c <> addr -> (In c (claims t') <-> (In c (claims t) /\ (now <= c_timeout c)%Z))).

Theorem announcement_sets_claims_exactly : forall salts now n addr pd info, (0 < now)%Z -> (0 <= claim_timeout (n_table n))%Z ->
  aget (n_peers n) addr = Some pd ->
  claims_exactly (n_table (fst (update_peer_info salts now n addr (Some info)))) (n_table n) now addr (ni_claims info).
Proof.
  intros salts now n addr pd info Hnow Hcto Ha. unfold update_peer_info. rewrite Ha. rewrite connect_to_peers_table. cbn [upd n_table].
  destruct (set_claims_exact (n_table n) now addr (ni_claims info) Hnow Hcto) as (H1 & H2 & H3 & _). split; [exact H1|split; [exact H2|exact H3]].
Qed.

Theorem node_info_message_sets_claims_exactly : forall salts now n src pd body info reply, (0 < now)%Z -> (0 <= claim_timeout (n_table n))%Z ->
  aget (n_peers n) src = Some pd -> ni_decode body = Ok info ->
  claims_exactly (n_table (fst (handle_result salts now n src (MMessage MESSAGE_TYPE_NODE_INFO body) reply))) (n_table n) now src (ni_claims info).
Proof.
  intros salts now n src pd body info reply Hnow Hcto Ha Hd. cbn [handle_result].
  change (MESSAGE_TYPE_NODE_INFO =? MESSAGE_TYPE_DATA) with false. change (MESSAGE_TYPE_NODE_INFO =? MESSAGE_TYPE_NODE_INFO) with true. cbn iota.
  rewrite Hd. exact (announcement_sets_claims_exactly salts now n src pd info Hnow Hcto Ha).
Qed.

Theorem handshake_payload_sets_claims_exactly : forall salts now n src pc info, (0 < now)%Z -> (0 <= claim_timeout (n_table n))%Z ->
  aget (n_pending n) src = Some pc ->
  claims_exactly (n_table (fst (add_new_peer salts now n src info))) (n_table n) now src (ni_claims info).
Proof.
  intros salts now n src pc info Hnow Hcto Hq. unfold add_new_peer. rewrite Hq.
  cbv zeta. set (n1 := upd n _ _ _ _).
  eapply (announcement_sets_claims_exactly salts now n1); [exact Hnow|exact Hcto|apply aget_aset_same].
Qed.
