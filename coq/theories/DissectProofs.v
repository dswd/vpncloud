(* C19 (and C13, C08): what the Ethernet and IP dissectors (payload.rs) return on each form of input: too short, VLAN tag, IPv4, IPv6. *)
From VpnModel Require Import Base BaseProofs Dissect.
From Coq Require Import ZifyBool.

Lemma land15 : forall a, N.land a 15 = a mod 16.
Proof. intros. change 15 with (N.ones 4). rewrite N.land_ones. reflexivity. Qed.

Lemma frame_short : forall d, (length d < 14)%nat -> frame_parse d = Err 1.
Proof. intros d H. unfold frame_parse. apply Nat.ltb_lt in H. rewrite H. reflexivity. Qed.

Lemma frame_parse_hdr : forall dst src e0 e1 rest, length dst = 6%nat -> length src = 6%nat ->
  frame_parse (dst ++ src ++ e0 :: e1 :: rest) =
  if (e0 =? 129) && (e1 =? 0) then
    match rest with
    | a :: b :: _ => if (N.land a 15 =? 0) && (b =? 0) then Ok (src, dst)
                     else Ok (N.land a 15 :: b :: src, N.land a 15 :: b :: dst)
    | _ => Err 2
    end
  else Ok (src, dst).
Proof.
  intros dst src e0 e1 rest Hd Hs. set (t := e0 :: e1 :: rest). unfold frame_parse.
  rewrite (skipn_app_exact _ dst _ 6 Hd), (firstn_app_exact _ dst _ 6 Hd), (firstn_app_exact _ src _ 6 Hs).
  assert (Hn : forall i, (12 <= i)%nat -> nth_b i (dst ++ src ++ t) = nth_b (i - 12) t)
    by (intros i Hi; rewrite app_assoc; apply nth_b_app_r; [rewrite app_length|]; lia).
  rewrite !Hn by lia. rewrite !app_length, Hd, Hs. unfold t.
  destruct rest as [|a [|b rest]]; reflexivity.
Qed.

Lemma frame_untagged : forall dst src e0 e1 rest,
  length dst = 6%nat -> length src = 6%nat -> (e0, e1) <> (129, 0) ->
  frame_parse (dst ++ src ++ e0 :: e1 :: rest) = Ok (src, dst).
Proof.
  intros dst src e0 e1 rest Hd Hs Hne. rewrite frame_parse_hdr by assumption.
  destruct (N.eqb_spec e0 129) as [->|]; [|reflexivity]. destruct (N.eqb_spec e1 0) as [->|]; [|reflexivity]. contradiction.
Qed.

Lemma frame_tag_short : forall dst src rest,
  length dst = 6%nat -> length src = 6%nat -> (length rest < 2)%nat ->
  frame_parse (dst ++ src ++ 129 :: 0 :: rest) = Err 2.
Proof.
  intros dst src rest Hd Hs Hr. rewrite frame_parse_hdr by assumption.
  destruct rest as [|a [|b rest]]; [reflexivity..|cbn [length] in Hr; lia].
Qed.

(* the 12-bit VLAN id of tag-control bytes a b *)
Definition vid (a b : N) : N := (a * 256 + b) mod 4096.

Lemma frame_tagged : forall dst src a b rest,
  length dst = 6%nat -> length src = 6%nat -> b < 256 ->
  frame_parse (dst ++ src ++ 129 :: 0 :: a :: b :: rest) =
    if vid a b =? 0 then Ok (src, dst)
    else Ok (be_enc 2 (vid a b) ++ src, be_enc 2 (vid a b) ++ dst).
Proof.
  intros dst src a b rest Hd Hs Hb. rewrite frame_parse_hdr by assumption. cbn [N.eqb Pos.eqb andb].
  rewrite land15.
  assert (Hv : vid a b = a mod 16 * 256 + b) by (unfold vid; lia).
  rewrite Hv. set (h := a mod 16). assert (h < 16) by (unfold h; lia).
  assert ((h * 256 + b =? 0) = ((h =? 0) && (b =? 0))) as -> by lia.
  destruct ((h =? 0) && (b =? 0)); [reflexivity|]. unfold be_enc. cbn [app].
  assert (((h * 256 + b) / 256) mod 256 = h /\ (h * 256 + b) mod 256 = b) as [-> ->] by lia. reflexivity.
Qed.

Lemma frame_no_panic : forall d, is_panic (frame_parse d) = false.
Proof.
  intros d. unfold frame_parse.
  destruct (length d <? 14)%nat; [reflexivity|].
  destruct ((nth_b 12 d =? 129) && (nth_b 13 d =? 0)); [|reflexivity].
  destruct (length d <? 16)%nat; [reflexivity|].
  destruct ((N.land (nth_b 14 d) 15 =? 0) && (nth_b 15 d =? 0)); reflexivity.
Qed.

(* every byte string of length >= 14 has the header shape the lemmas above speak about *)
Lemma frame_shape : forall d : bytes, (14 <= length d)%nat ->
  exists dst src e0 e1 rest, length dst = 6%nat /\ length src = 6%nat /\ d = dst ++ src ++ e0 :: e1 :: rest.
Proof.
  intros d H.
  exists (firstn 6 d), (firstn 6 (skipn 6 d)).
  remember (skipn 6 (skipn 6 d)) as t eqn:Ht.
  assert (Hlt : (2 <= length t)%nat) by (subst t; rewrite !skipn_length; lia).
  destruct t as [|e0 [|e1 rest]]; simpl in Hlt; try lia.
  exists e0, e1, rest. repeat split.
  - rewrite firstn_length. lia.
  - rewrite firstn_length, skipn_length. lia.
  - rewrite Ht. rewrite firstn_skipn. rewrite firstn_skipn. reflexivity.
Qed.

Lemma packet_empty : packet_parse [] = Err 3.
Proof. reflexivity. Qed.

(* Packet::parse tests the length against the end e of the second address before it slices *)
Lemma packet_addrs : forall (hd src dst rest : bytes) o n o' e,
  length hd = o -> length src = n -> length dst = n -> o' = (o + n)%nat -> e = (o' + n)%nat ->
  let d := hd ++ src ++ dst ++ rest in
  (length d <? e)%nat = false /\ firstn n (skipn o d) = src /\ firstn n (skipn o' d) = dst.
Proof.
  intros hd src dst rest o n o' e Hh Hs Hd -> -> d. unfold d. split; [|split].
  - apply Nat.ltb_ge. rewrite !app_length. lia.
  - rewrite (skipn_app_exact _ hd _ o Hh). apply firstn_app_exact, Hs.
  - rewrite app_assoc, skipn_app_exact by (rewrite app_length; lia). apply firstn_app_exact, Hd.
Qed.

Lemma packet_v4 : forall src dst rest b0 h,
  b0 / 16 = 4 -> length (b0 :: h) = 12%nat -> length src = 4%nat -> length dst = 4%nat ->
  packet_parse ((b0 :: h) ++ src ++ dst ++ rest) = Ok (src, dst).
Proof.
  intros src dst rest b0 h Hv Hl Hs Hd.
  unfold packet_parse. cbn [app]. rewrite Hv. cbn [N.eqb Pos.eqb].
  change (b0 :: h ++ src ++ dst ++ rest) with ((b0 :: h) ++ src ++ dst ++ rest).
  destruct (packet_addrs (b0 :: h) src dst rest 12 4 16 20 Hl Hs Hd eq_refl eq_refl) as (-> & -> & ->). reflexivity.
Qed.

Lemma packet_v6 : forall src dst rest b0 h,
  b0 / 16 = 6 -> length (b0 :: h) = 8%nat -> length src = 16%nat -> length dst = 16%nat ->
  packet_parse ((b0 :: h) ++ src ++ dst ++ rest) = Ok (src, dst).
Proof.
  intros src dst rest b0 h Hv Hl Hs Hd.
  unfold packet_parse. cbn [app]. rewrite Hv. cbn [N.eqb Pos.eqb].
  change (b0 :: h ++ src ++ dst ++ rest) with ((b0 :: h) ++ src ++ dst ++ rest).
  destruct (packet_addrs (b0 :: h) src dst rest 8 16 24 40 Hl Hs Hd eq_refl eq_refl) as (-> & -> & ->). reflexivity.
Qed.

Lemma packet_v4_short : forall b0 t, b0 / 16 = 4 -> (length (b0 :: t) < 20)%nat -> packet_parse (b0 :: t) = Err 4.
Proof.
  intros b0 t Hv Hl. unfold packet_parse. rewrite Hv. cbn [N.eqb Pos.eqb].
  apply Nat.ltb_lt in Hl. rewrite Hl. reflexivity.
Qed.

Lemma packet_v6_short : forall b0 t, b0 / 16 = 6 -> (length (b0 :: t) < 40)%nat -> packet_parse (b0 :: t) = Err 5.
Proof.
  intros b0 t Hv Hl. unfold packet_parse. rewrite Hv. cbn [N.eqb Pos.eqb].
  apply Nat.ltb_lt in Hl. rewrite Hl. reflexivity.
Qed.

Lemma packet_other : forall b0 t, b0 / 16 <> 4 -> b0 / 16 <> 6 -> packet_parse (b0 :: t) = Err 6.
Proof.
  intros b0 t H4 H6. unfold packet_parse.
  apply N.eqb_neq in H4, H6. rewrite H4, H6. reflexivity.
Qed.

Lemma packet_no_panic : forall d, is_panic (packet_parse d) = false.
Proof.
  intros [|b0 t]; [reflexivity|]. unfold packet_parse.
  destruct (b0 / 16 =? 4).
  - destruct (length (b0 :: t) <? 20)%nat; reflexivity.
  - destruct (b0 / 16 =? 6); [|reflexivity].
    destruct (length (b0 :: t) <? 40)%nat; reflexivity.
Qed.
