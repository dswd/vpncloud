(* C14 over whole runs: a node never peers with itself - every peer of every reachable state was admitted by a handshake message
   carrying ANOTHER node's id. *)
From VpnModel Require Import Base Conn PeerCrypto Node InitSteps NextHopProofs AdmissionProofs.

Lemma success_not_self : forall ok s m p ini, snd (fst (handle_init ok s m)) = Ok (ISuccess p ini) -> im_node m <> i_node s.
Proof.
  intros ok s m p ini H. destruct (handle_init ok s m) as [[s' r] rep] eqn:E. cbn [fst snd] in H. subst r.
  apply (handle_init_success _ _ _ _ _ _ _ E).
Qed.

(* C14, whole runs: every peer of every reachable state was admitted by a handshake message of ANOTHER node - a node never peers
   with itself, through whatever address its own messages come back *)
Theorem never_peers_with_itself : forall salts c t0 evs a,
  ahas (n_peers (nrun salts (node_new c t0) evs)) a = true ->
  exists now m, In (now, ENet a (WInit m)) evs /\ im_node m <> c_num c.
Proof. intros salts c t0 evs a H. destruct (every_peer_admitted salts c t0 evs a H) as (now & m & A & _ & B). exists now, m. auto. Qed.
