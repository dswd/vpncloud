(* Conn.handle_init cut at its joints.  The function is a gate - is the message trusted, complete, somebody else's, and of the stage
   the object waits for (or a ping that crosses our own and wins the tie-break)? - which leaves the object untouched unless it lets
   the message through, followed by one of three stage handlers run on the object with its retry counter cleared.  Proofs about
   handle_init go through `handle_init_eq` and then look at the gate (`hi_gate_accept`) and at the outcome of one small handler
   (`hi_stage_outcomes`; the steps of a handshake that goes well are the equations at the end). *)
From VpnModel Require Import Base Core Conn.

(* field presence checks of read_from *)
Definition hi_fields_ok (m : imsg) : bool :=
  if im_stage m =? STAGE_PING then (match im_ecdh m, im_algos m with Some _, Some _ => true | _, _ => false end)
  else if im_stage m =? STAGE_PONG then (match im_ecdh m, im_algos m, im_payload m with Some _, Some _, Some _ => true | _, _, _ => false end)
  else if im_stage m =? STAGE_PENG then (match im_payload m with Some _ => true | None => false end)
  else false.

(* the object as the handlers find it: retries cleared; after a lost dual open, a fresh responder *)
Definition hi_retry0 (s : init_state) : init_state :=
  upd_init s (i_ecdh s) (i_stage s) (i_close_time s) (i_last s) (i_core s) (i_selected s) 0 (i_fresh s).
Definition hi_reset (s : init_state) : init_state :=
  upd_init s None STAGE_PING (i_close_time s) None (i_core s) (i_selected s) 0 (i_fresh s).

Inductive gate := GReject (e : N) | GIgnore (rep : option imsg) | GAccept (s0 : init_state).

Definition hi_gate (s : init_state) (m : imsg) : gate :=
  if negb (existsb (N.eqb (im_signer m)) (i_trusted s)) then GReject 1 else
  if negb (hi_fields_ok m) then GReject 1 else
  if ((i_salt s =? im_salt m) && (i_node s =? im_node m)) || (i_node s =? im_node m) then GReject 2 else
  let mismatch := negb (im_stage m =? i_stage s) in
  let dual := mismatch && (i_stage s =? STAGE_PONG) && (im_stage m =? STAGE_PING) in
  if dual && negb (hash_gt (im_salt m) (im_node m) (i_salt s) (i_node s)) then GIgnore None
  else if mismatch && negb dual && (i_stage s =? CLOSING) then GIgnore None
  else if mismatch && negb dual && (match i_last s with Some _ => true | None => false end) then GIgnore (i_last s)
  else if mismatch && negb dual then GReject 2
  else GAccept (if dual then hi_reset s else hi_retry0 s).

Definition peer_algos (m : imsg) : algos := match im_algos m with Some a => a | None => {| a_list := []; a_plain := false |} end.
Definition peer_pub (m : imsg) : bytes := match im_ecdh m with Some b => b | None => [] end.
Definition peer_payload (m : imsg) : ipayload := match im_payload m with Some p => p | None => PPlain [] end.

(* the key for the chosen cipher (none for plain); fails on a public key that is not 32 bytes long *)
Definition hi_key (alg : option (N * N)) (priv : N) (m : imsg) : option (option (N * N)) :=
  match alg with
  | Some (a, _) => match ecdh priv (peer_pub m) with Some k => Some (Some (a, k)) | None => None end
  | None => Some None
  end.

Definition hi_ping (s0 : init_state) (m : imsg) : init_state * res init_result * option imsg :=
  let hf := hash_gt (i_salt s0) (i_node s0) (im_salt m) (im_node m) in
  let priv := i_fresh s0 in
  let dummy := i_fresh s0 + 1 in
  let s1 := upd_init s0 (i_ecdh s0) (i_stage s0) (i_close_time s0) (i_last s0) (i_core s0) (i_selected s0) (i_retries s0) (priv + 2) in
  match select_algorithm (i_algos s1) (peer_algos m) with
  | Err _ => (s1, Err 2, None)
  | Panic p => (s1, Panic p, None)
  | Ok alg =>
      match hi_key alg priv m with
      | None => (s1, Panic 10, None)
      | Some ak =>
          let c := match ak with Some _ => core_of_key s1 ak hf dummy | None => i_core s1 end in
          let s2 := upd_init s1 (i_ecdh s1) (i_stage s1) (i_close_time s1) (i_last s1) c
                             (match alg with Some (a, _) => Some a | None => None end) (i_retries s1) (i_fresh s1) in
          let '(s3, reply) := init_send s2 STAGE_PONG (Some (ecdh_pub priv)) in
          (upd_init s3 (i_ecdh s3) STAGE_PENG (i_close_time s3) (i_last s3) (i_core s3) (i_selected s3) (i_retries s3) (i_fresh s3),
           Ok IContinue, Some reply)
      end
  end.

Definition hi_pong (payload_ok : bytes -> bool) (s0 : init_state) (m : imsg) : init_state * res init_result * option imsg :=
  let hf := hash_gt (i_salt s0) (i_node s0) (im_salt m) (im_node m) in
  match i_ecdh s0 with
  | None => (s0, Panic 11, None)
  | Some priv =>
      let dummy := i_fresh s0 in
      let s1 := upd_init s0 None (i_stage s0) (i_close_time s0) (i_last s0) (i_core s0) (i_selected s0) (i_retries s0) (i_fresh s0 + 1) in
      match select_algorithm (i_algos s1) (peer_algos m) with
      | Err _ => (s1, Err 2, None)
      | Panic p => (s1, Panic p, None)
      | Ok alg =>
          match hi_key alg priv m with
          | None => (s1, Panic 10, None)
          | Some ak =>
              let c := match ak with Some _ => core_of_key s1 ak hf dummy | None => i_core s1 end in
              let sel := match alg with Some (a, _) => Some a | None => None end in
              let '(c', pp) := init_decrypt payload_ok c (peer_payload m) in
              let s2 := upd_init s1 (i_ecdh s1) (i_stage s1) (i_close_time s1) (i_last s1) c' sel (i_retries s1) (i_fresh s1) in
              match pp with
              | None => (s2, Err 2, None)
              | Some peer_payload =>
                  let '(s3, reply) := init_send s2 STAGE_PENG None in
                  (upd_init s3 (i_ecdh s3) WAITING_TO_CLOSE 60 (i_last s3) (i_core s3) (i_selected s3) (i_retries s3) (i_fresh s3),
                   Ok (ISuccess peer_payload true), Some reply)
              end
          end
      end
  end.

(* a peng: open the peer's payload with the core prepared when the pong was sent: completed as responder *)
Definition hi_peng (payload_ok : bytes -> bool) (s0 : init_state) (m : imsg) : init_state * res init_result * option imsg :=
  let '(c', pp) := init_decrypt payload_ok (i_core s0) (peer_payload m) in
  let s1 := upd_init s0 (i_ecdh s0) (i_stage s0) (i_close_time s0) (i_last s0) c' (i_selected s0) (i_retries s0) (i_fresh s0) in
  match pp with
  | None => (s1, Err 2, None)
  | Some peer_payload =>
      (upd_init s1 (i_ecdh s1) CLOSING (i_close_time s1) (i_last s1) (i_core s1) (i_selected s1) (i_retries s1) (i_fresh s1),
       Ok (ISuccess peer_payload false), None)
  end.

Definition hi_stage (payload_ok : bytes -> bool) (s0 : init_state) (m : imsg) : init_state * res init_result * option imsg :=
  if im_stage m =? STAGE_PING then hi_ping s0 m
  else if im_stage m =? STAGE_PONG then hi_pong payload_ok s0 m
  else hi_peng payload_ok s0 m.

Theorem handle_init_eq : forall ok s m,
  handle_init ok s m = match hi_gate s m with
                       | GReject e => (s, Err e, None)
                       | GIgnore rep => (s, Ok IContinue, rep)
                       | GAccept s0 => hi_stage ok s0 m
                       end.
Proof.
  intros ok s m.
  set (f := fun g => match g with GReject e => (s, Err e, None) | GIgnore rep => (s, Ok IContinue, rep) | GAccept s0 => hi_stage ok s0 m end).
  change (handle_init ok s m = f (hi_gate s m)).
  (* push f through the gate's tests: what remains is handle_init's own text.  Splitting handle_init on its tests instead is slow to
     check: the gate's conditions recur in every branch below them. *)
  assert (push : forall (c : bool) x y, f (if c then x else y) = if c then f x else f y) by (intros [|]; reflexivity).
  unfold hi_gate. cbv zeta. rewrite !push. reflexivity.
Qed.

Lemma hi_fields_stage : forall m, hi_fields_ok m = true ->
  im_stage m = STAGE_PING \/ im_stage m = STAGE_PONG \/ im_stage m = STAGE_PENG.
Proof.
  intros m. unfold hi_fields_ok.
  destruct (im_stage m =? STAGE_PING) eqn:E1; [left; apply N.eqb_eq; exact E1|].
  destruct (im_stage m =? STAGE_PONG) eqn:E2; [right; left; apply N.eqb_eq; exact E2|].
  destruct (im_stage m =? STAGE_PENG) eqn:E3; [right; right; apply N.eqb_eq; exact E3|discriminate].
Qed.

Lemma hi_fields_ecdh : forall m, hi_fields_ok m = true -> im_stage m = STAGE_PING \/ im_stage m = STAGE_PONG ->
  exists b, im_ecdh m = Some b.
Proof.
  intros m. unfold hi_fields_ok. intros H [E|E]; rewrite E in H; cbn in H; destruct (im_ecdh m) as [b|]; try discriminate H; eexists; reflexivity.
Qed.

Lemma hi_gate_accept : forall s m s0, hi_gate s m = GAccept s0 ->
  existsb (N.eqb (im_signer m)) (i_trusted s) = true /\ hi_fields_ok m = true /\ (i_node s =? im_node m) = false /\
  ((im_stage m = i_stage s /\ s0 = hi_retry0 s) \/
   (i_stage s = STAGE_PONG /\ im_stage m = STAGE_PING /\ s0 = hi_reset s)).
Proof.
  intros s m s0. unfold hi_gate.
  destruct (existsb (N.eqb (im_signer m)) (i_trusted s)); [|discriminate].
  destruct (hi_fields_ok m); [|discriminate].
  destruct (i_node s =? im_node m); [rewrite Bool.orb_true_r; discriminate|]. rewrite Bool.andb_false_r.
  cbn [negb orb]. destruct (im_stage m =? i_stage s) eqn:Est; cbn [negb andb].
  - intros H. injection H as <-. split; [reflexivity|]. split; [reflexivity|]. split; [reflexivity|]. left. split; [apply N.eqb_eq; exact Est|reflexivity].
  - destruct (i_stage s =? STAGE_PONG) eqn:E2; cbn [andb negb].
    + destruct (im_stage m =? STAGE_PING) eqn:E1; cbn [andb negb].
      * destruct (hash_gt _ _ _ _); cbn [negb]; [|discriminate].
        intros H. injection H as <-. split; [reflexivity|]. split; [reflexivity|]. split; [reflexivity|]. right.
        split; [apply N.eqb_eq; exact E2|]. split; [apply N.eqb_eq; exact E1|reflexivity].
      * destruct (i_stage s =? CLOSING); [discriminate|]. destruct (i_last s); discriminate.
    + destruct (i_stage s =? CLOSING); [discriminate|]. destruct (i_last s); discriminate.
Qed.

Lemma hi_gate_ignore : forall s m rep, hi_gate s m = GIgnore rep -> rep = None \/ rep = i_last s.
Proof.
  intros s m rep. unfold hi_gate. cbv zeta.
  repeat match goal with |- (if ?c then _ else _) = _ -> _ => destruct c end;
    intros H; try discriminate H; injection H as <-; [left|left|right]; reflexivity.
Qed.

Lemma hi_accepted_stage : forall s m s0, hi_gate s m = GAccept s0 -> i_stage s0 = im_stage m.
Proof.
  intros s m s0 H. destruct (hi_gate_accept s m s0 H) as (_ & _ & _ & [[E ->]|(_ & E & ->)]); cbn [hi_retry0 hi_reset upd_init i_stage]; congruence.
Qed.

Lemma init_decrypt_ok : forall ok c p c' b, init_decrypt ok c p = (c', Some b) -> ok b = true.
Proof.
  intros ok c p c' b H. unfold init_decrypt in H.
  destruct c as [c0|]; destruct p as [d|d].
  - destruct (core_decrypt c0 d) as [c1 [pl|e|s]]; try discriminate.
    destruct (ok pl) eqn:E; [inversion H; subst; exact E|discriminate].
  - destruct (core_decrypt c0 (dgram_of_bytes d)); discriminate.
  - discriminate.
  - destruct (ok d) eqn:E; [inversion H; subst; exact E|discriminate].
Qed.

Lemma init_decrypt_sealed : forall ok c d p, snd (core_decrypt c d) = Ok p -> ok p = true ->
  init_decrypt ok (Some c) (PSealed d) = (Some (fst (core_decrypt c d)), Some p).
Proof.
  intros ok c d p H Hp. unfold init_decrypt. destruct (core_decrypt c d) as [c1 r]. cbn [fst snd] in *. rewrite H, Hp. reflexivity.
Qed.

Lemma select_never_panics : forall a b s, select_algorithm a b <> Panic s.
Proof. intros a b s. unfold select_algorithm. destruct (a_plain a && a_plain b); [discriminate|]. destruct (candidates _ _); discriminate. Qed.

(* what an object is created with and keeps for life *)
Definition same_ident (s s' : init_state) : Prop :=
  i_node s' = i_node s /\ i_trusted s' = i_trusted s /\ i_algos s' = i_algos s.

Lemma init_send_frame : forall s stage pub s' msg, init_send s stage pub = (s', msg) ->
  i_last s' = Some msg /\ i_ecdh s' = i_ecdh s /\ i_stage s' = i_stage s /\ i_retries s' = i_retries s /\ same_ident s s'.
Proof.
  intros s stage pub s' msg. unfold init_send. destruct (if stage =? STAGE_PING then _ else _) as [c' pl].
  intros H. injection H as <- <-. repeat split.
Qed.

(* One of the three stage handlers, by outcome: it fails (with error 2, or in one of the two unwraps of init.rs), or a ping is
   answered with a pong, or a pong or a peng completes the handshake.  The object keeps what it was created with in each. *)
Lemma hi_stage_outcomes : forall ok s0 m (R : init_state * res init_result * option imsg -> Prop),
  (forall s' r, same_ident s0 s' ->
     match r with
     | Ok _ => False
     | Err e => e = 2
     | Panic p => (p = 11 /\ im_stage m = STAGE_PONG /\ i_ecdh s0 = None) \/
                  (p = 10 /\ (im_stage m = STAGE_PING \/ im_stage m = STAGE_PONG) /\ length (peer_pub m) <> 32%nat)
     end -> R (s', r, None)) ->
  (forall s' reply, same_ident s0 s' -> im_stage m = STAGE_PING -> i_stage s' = STAGE_PENG -> i_ecdh s' = i_ecdh s0 ->
     i_last s' = Some reply -> R (s', Ok IContinue, Some reply)) ->
  (forall s' pl (ini : bool) rep, same_ident s0 s' -> ok pl = true -> i_stage s' = (if ini then WAITING_TO_CLOSE else CLOSING) ->
     im_stage m <> STAGE_PING -> R (s', Ok (ISuccess pl ini), rep)) ->
  R (hi_stage ok s0 m).
Proof.
  intros ok s0 m R Hfail Hpong Hdone. unfold hi_stage.
  assert (K : forall alg priv, hi_key alg priv m = None -> length (peer_pub m) <> 32%nat).
  { intros [[a sp]|] priv H L; [|discriminate H]. unfold hi_key, ecdh in H. rewrite L in H. discriminate H. }
  destruct (im_stage m =? STAGE_PING) eqn:E1; [apply N.eqb_eq in E1|apply N.eqb_neq in E1; destruct (im_stage m =? STAGE_PONG) eqn:E2; [apply N.eqb_eq in E2|]].
  - unfold hi_ping. destruct (select_algorithm _ (peer_algos m)) as [alg|e|p] eqn:Es; [|apply Hfail; [repeat split|reflexivity]|destruct (select_never_panics _ _ _ Es)].
    destruct (hi_key alg (i_fresh s0) m) as [ak|] eqn:Ek; [|apply Hfail; [repeat split|right; split; [reflexivity|split; [left; exact E1|exact (K _ _ Ek)]]]].
    destruct (init_send _ STAGE_PONG _) as [s3 reply] eqn:Ei. destruct (init_send_frame _ _ _ _ _ Ei) as (L & Ke & _ & _ & I3).
    apply Hpong; [destruct I3 as (A & B & C); repeat split; assumption|exact E1|reflexivity|exact Ke|exact L].
  - unfold hi_pong. destruct (i_ecdh s0) as [priv|] eqn:Ee; [|apply Hfail; [repeat split|left; auto]].
    destruct (select_algorithm _ (peer_algos m)) as [alg|e|p] eqn:Es; [|apply Hfail; [repeat split|reflexivity]|destruct (select_never_panics _ _ _ Es)].
    destruct (hi_key alg priv m) as [ak|] eqn:Ek; [|apply Hfail; [repeat split|right; split; [reflexivity|split; [right; exact E2|exact (K _ _ Ek)]]]].
    destruct (init_decrypt ok _ (peer_payload m)) as [c' [pl|]] eqn:Ed; [|apply Hfail; [repeat split|reflexivity]].
    destruct (init_send _ STAGE_PENG None) as [s3 reply] eqn:Ei. destruct (init_send_frame _ _ _ _ _ Ei) as (_ & _ & _ & _ & I3).
    apply Hdone; [destruct I3 as (A & B & C); repeat split; assumption|exact (init_decrypt_ok _ _ _ _ _ Ed)|reflexivity|exact E1].
  - unfold hi_peng. destruct (init_decrypt ok (i_core s0) (peer_payload m)) as [c' [pl|]] eqn:Ed; [|apply Hfail; [repeat split|reflexivity]].
    apply Hdone; [repeat split|exact (init_decrypt_ok _ _ _ _ _ Ed)|reflexivity|exact E1].
Qed.

Lemma hi_stage_ident : forall ok s0 m, same_ident s0 (fst (fst (hi_stage ok s0 m))).
Proof. intros ok s0 m. apply hi_stage_outcomes; intros; assumption. Qed.

Lemma handle_init_success : forall ok s m s' pl ini rep, handle_init ok s m = (s', Ok (ISuccess pl ini), rep) ->
  ok pl = true /\ i_stage s' = (if ini then WAITING_TO_CLOSE else CLOSING) /\ im_stage m = i_stage s /\ i_stage s <> STAGE_PING /\
  existsb (N.eqb (im_signer m)) (i_trusted s) = true /\ im_node m <> i_node s.
Proof.
  intros ok s m s' pl ini rep. rewrite handle_init_eq. destruct (hi_gate s m) as [e|r|s0] eqn:G; try discriminate.
  destruct (hi_gate_accept s m s0 G) as (Ht & _ & Hn & Hs0). apply N.eqb_neq in Hn. apply hi_stage_outcomes.
  - intros s1 r _ Hr H. injection H as _ -> _. destruct Hr.
  - intros s1 reply _ _ _ _ _ H. discriminate H.
  - intros s1 pl1 ini1 rep1 _ A B C H. injection H as <- <- <- _. destruct Hs0 as [[E _]|(_ & E & _)]; [|contradiction].
    repeat split; congruence.
Qed.

(* the two unwraps of init.rs, seen from outside: the ECDH key of an object that waits for a pong is gone, or the public key in a
   ping or pong has the wrong length *)
Lemma handle_init_panic : forall ok s m p, snd (fst (handle_init ok s m)) = Panic p ->
  (p = 11 /\ i_stage s = STAGE_PONG /\ i_ecdh s = None) \/
  (p = 10 /\ exists b, im_ecdh m = Some b /\ length b <> 32%nat).
Proof.
  intros ok s m p. rewrite handle_init_eq. destruct (hi_gate s m) as [e|rep|s0] eqn:G; [discriminate|discriminate|].
  destruct (hi_gate_accept s m s0 G) as (_ & Hf & _ & Hs0). apply hi_stage_outcomes; cbn [fst snd]; [|discriminate..].
  intros s' r _ Hr ->. destruct Hr as [(-> & Ep & Ek)|(-> & Hst & Hlen)]; [left|right]; (split; [reflexivity|]).
  - (* the gate let a pong through, so the object does wait for one *)
    destruct Hs0 as [[Es ->]|(_ & Ep' & _)]; [|rewrite Ep in Ep'; discriminate Ep']. split; [congruence|exact Ek].
  - (* the gate saw to it that there is a public key *)
    destruct (hi_fields_ecdh m Hf Hst) as [b Hb]. exists b. split; [exact Hb|]. unfold peer_pub in Hlen. rewrite Hb in Hlen. exact Hlen.
Qed.

Lemma handle_init_ident : forall ok s m, same_ident s (fst (fst (handle_init ok s m))).
Proof.
  intros ok s m. rewrite handle_init_eq. destruct (hi_gate s m) as [e|rep|s0] eqn:G; [repeat split..|].
  destruct (hi_gate_accept s m s0 G) as (_ & _ & _ & [[_ ->]|(_ & _ & ->)]); [exact (hi_stage_ident ok (hi_retry0 s) m)|exact (hi_stage_ident ok (hi_reset s) m)].
Qed.

Lemma init_send_ping_ident : forall s, same_ident s (fst (init_send_ping s)).
Proof.
  intros s. unfold init_send_ping.
  match goal with |- context [init_send ?a ?b ?c] => destruct (init_send a b c) as [s2 m] eqn:E end.
  destruct (init_send_frame _ _ _ _ _ E) as (_ & _ & _ & _ & K). exact K.
Qed.

Lemma init_every_second_frame : forall i, let i' := fst (init_every_second i) in
  same_ident i i' /\ i_ecdh i' = i_ecdh i /\ i_core i' = i_core i /\ i_last i' = i_last i /\
  (i_stage i' = i_stage i \/ i_stage i' = CLOSING) /\
  (forall m, snd (init_every_second i) = Ok (Some m) -> i_last i = Some m).
Proof.
  intros i. unfold init_every_second.
  assert (Q : forall m, Ok (@None imsg) = Ok (Some m) -> i_last i = Some m) by (intros m H; discriminate H).
  destruct (i_stage i =? WAITING_TO_CLOSE); [destruct (i_close_time i =? 0)|destruct (i_stage i =? CLOSING); [|destruct (i_retries i <? MAX_FAILED_RETRIES)]];
    cbn [fst snd upd_init i_ecdh i_core i_last i_stage]; (split; [repeat split|]); do 3 (split; [reflexivity|]).
  - split; [right; reflexivity|exact Q].
  - split; [left; reflexivity|exact Q].
  - split; [left; reflexivity|exact Q].
  - split; [left; reflexivity|]. intros m H. injection H as H. exact H.
  - split; [right; reflexivity|]. intros m H. discriminate H.
Qed.

Lemma init_every_second_ident : forall s, same_ident s (fst (init_every_second s)).
Proof. intros s. apply init_every_second_frame. Qed.

Lemma init_every_second_result : forall i, match snd (init_every_second i) with Panic _ => False | _ => True end.
Proof. intros i. unfold init_every_second. repeat match goal with |- context [if ?c then _ else _] => destruct c end; exact I. Qed.

Lemma hi_gate_expected : forall s m, existsb (N.eqb (im_signer m)) (i_trusted s) = true -> hi_fields_ok m = true ->
  i_node s <> im_node m -> im_stage m = i_stage s -> hi_gate s m = GAccept (hi_retry0 s).
Proof.
  intros s m Ht Hf Hn Hs. unfold hi_gate. rewrite Ht, Hf, Hs, N.eqb_refl. apply N.eqb_neq in Hn. rewrite Hn, Bool.andb_false_r. reflexivity.
Qed.

(* init_encrypt_payload as a function of the two fields it reads *)
Definition seal_payload (c : option core) (p : bytes) : option core * ipayload :=
  match c with
  | Some c0 => (Some (fst (core_encrypt c0 p)), PSealed (snd (core_encrypt c0 p)))
  | None => (None, PPlain p)
  end.

Lemma init_send_reply : forall s stage pub, (stage =? STAGE_PING) = false ->
  let cp := seal_payload (i_core s) (i_payload s) in
  let msg := {| im_signer := i_key s; im_stage := stage; im_salt := i_salt s; im_node := i_node s; im_ecdh := pub;
                im_algos := if stage =? STAGE_PENG then None else Some (i_algos s); im_payload := Some (snd cp) |} in
  init_send s stage pub =
  (upd_init s (i_ecdh s) (i_stage s) (i_close_time s) (Some msg) (fst cp) (i_selected s) (i_retries s) (i_fresh s), msg).
Proof.
  intros s stage pub H. unfold init_send, init_encrypt_payload, seal_payload. rewrite H.
  destruct (i_core s) as [c|]; [destruct (core_encrypt c (i_payload s))|]; reflexivity.
Qed.

Lemma hi_ping_answer : forall ok s0 m alg ak, im_stage m = STAGE_PING ->
  select_algorithm (i_algos s0) (peer_algos m) = Ok alg -> hi_key alg (i_fresh s0) m = Some ak ->
  let c := match ak with
           | Some _ => core_of_key s0 ak (hash_gt (i_salt s0) (i_node s0) (im_salt m) (im_node m)) (i_fresh s0 + 1)
           | None => i_core s0
           end in
  let cp := seal_payload c (i_payload s0) in
  let pong := {| im_signer := i_key s0; im_stage := STAGE_PONG; im_salt := i_salt s0; im_node := i_node s0;
                 im_ecdh := Some (ecdh_pub (i_fresh s0)); im_algos := Some (i_algos s0); im_payload := Some (snd cp) |} in
  hi_stage ok s0 m =
  (upd_init s0 (i_ecdh s0) STAGE_PENG (i_close_time s0) (Some pong) (fst cp) (option_map fst alg) (i_retries s0) (i_fresh s0 + 2),
   Ok IContinue, Some pong).
Proof.
  intros ok s0 m alg ak Hm Hs Hk. unfold hi_stage, hi_ping. rewrite Hm.
  cbn [N.eqb Pos.eqb STAGE_PING upd_init i_algos i_fresh]. rewrite Hs, Hk, init_send_reply by reflexivity.
  destruct alg as [[a sp]|]; reflexivity.
Qed.

Lemma hi_pong_success : forall ok s0 m priv alg ak c' p, im_stage m = STAGE_PONG -> i_ecdh s0 = Some priv ->
  select_algorithm (i_algos s0) (peer_algos m) = Ok alg -> hi_key alg priv m = Some ak ->
  let c := match ak with
           | Some _ => core_of_key s0 ak (hash_gt (i_salt s0) (i_node s0) (im_salt m) (im_node m)) (i_fresh s0)
           | None => i_core s0
           end in
  init_decrypt ok c (peer_payload m) = (c', Some p) ->
  let cp := seal_payload c' (i_payload s0) in
  let peng := {| im_signer := i_key s0; im_stage := STAGE_PENG; im_salt := i_salt s0; im_node := i_node s0;
                 im_ecdh := None; im_algos := None; im_payload := Some (snd cp) |} in
  hi_stage ok s0 m =
  (upd_init s0 None WAITING_TO_CLOSE 60 (Some peng) (fst cp) (option_map fst alg) (i_retries s0) (i_fresh s0 + 1),
   Ok (ISuccess p true), Some peng).
Proof.
  intros ok s0 m priv alg ak c' p Hm He Hs Hk c Hd. unfold hi_stage, hi_pong. rewrite Hm, He.
  cbn [N.eqb Pos.eqb STAGE_PING STAGE_PONG upd_init i_algos i_fresh]. rewrite Hs, Hk.
  change (init_decrypt ok _ (peer_payload m)) with (init_decrypt ok c (peer_payload m)).
  rewrite Hd, init_send_reply by reflexivity. destruct alg as [[a sp]|]; reflexivity.
Qed.

Lemma hi_peng_success : forall ok s0 m c' p, im_stage m = STAGE_PENG ->
  init_decrypt ok (i_core s0) (peer_payload m) = (c', Some p) ->
  hi_stage ok s0 m =
  (upd_init s0 (i_ecdh s0) CLOSING (i_close_time s0) (i_last s0) c' (i_selected s0) (i_retries s0) (i_fresh s0), Ok (ISuccess p false), None).
Proof. intros ok s0 m c' p Hm Hd. unfold hi_stage, hi_peng. rewrite Hm, Hd. reflexivity. Qed.
