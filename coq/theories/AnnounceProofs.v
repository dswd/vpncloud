(* C15, the other direction ("healthy peers never time out" needs the announcements to go out): whenever an announcement is due, the
   housekeeping tick sends it to EVERY current peer exactly once - in every reachable state, whether or not a late housekeeping step
   fails (c_hkfault): the announcement sits before the steps that can fail. *)
From VpnModel Require Import Base RangeMatch Table Nonce Replay Core Conn PeerCrypto NodeInfo Interval Node NodeProofs TrustProofs SurviveProofs
  NodeSteps NextHopProofs TickPeersProofs FloodProofs.

Definition hk3 (salts : list (N * N)) (now : Z) (n : node) : node :=
  let n1 := fst (expire_phase salts now n) in
  fst (crypto_housekeep salts now (upd n1 (n_peers n1) (n_pending n1) (n_own n1) (table_housekeep (n_table n1) now))).

Lemma hk3_path : forall salts now ev n, reach salts now ev false n [] (hk3 salts now n).
Proof.
  intros salts now ev n. unfold hk3. eapply reach_incl; [|apply incl_nil_l].
  eapply reach_trans; [|apply crypto_housekeep_path]. eapply reach_then; [apply expire_phase_path|apply reach_one, t_sweep].
Qed.

Lemma hk3_inv : forall salts now n, ND n -> SE n -> ND (hk3 salts now n) /\ SE (hk3 salts now n).
Proof.
  intros salts now n Hnd Hse. pose proof (hk3_path salts now EHousekeep n) as R.
  split; [exact (reach_inv0 _ _ _ _ ND (trans_nd _ _ _ _) _ _ _ R Hnd)|exact (reach_inv0 _ _ _ _ SE (trans_se _ _ _ _) _ _ _ R Hse)].
Qed.

Theorem housekeeping_announces_to_every_peer : forall salts now n, ND n -> SE n -> (n_next_peers (hk3 salts now n) <= now)%Z ->
  let n3 := hk3 salts now n in
  let ann := snd (broadcast n3 MESSAGE_TYPE_NODE_INFO (ni_encode (create_node_info n3))) in
  (exists pre post, snd (housekeep salts now n) = pre ++ ann ++ post) /\
  map dst_of ann = map (fun e => Some (fst e)) (n_peers n3).
Proof.
  intros salts now n Hnd Hse Hdue. cbv zeta. destruct (hk3_inv salts now n Hnd Hse) as [A3 B3].
  split; [|apply broadcast_every_peer_once; [exact (proj1 A3)|exact B3]].
  unfold housekeep. fold (expire_phase salts now n). unfold hk3 in *.
  destruct (expire_phase salts now n) as [n1 fx1]. cbn [fst] in *.
  destruct (crypto_housekeep salts now (upd n1 (n_peers n1) (n_pending n1) (n_own n1) (table_housekeep (n_table n1) now))) as [m3 fx3]. cbn [fst] in *.
  apply Z.leb_le in Hdue. rewrite Hdue.
  destruct (broadcast m3 MESSAGE_TYPE_NODE_INFO (ni_encode (create_node_info m3))) as [m fx]. cbn [snd].
  destruct (reconnect_step salts now _) as [n5 fx5]. cbn [snd].
  exists (fx1 ++ fx3), fx5. rewrite <- !app_assoc. reflexivity.
Qed.

Lemma trans_next_peers : forall salts now ev n fx n', trans salts now ev false n fx n' -> n_next_peers n' = n_next_peers n.
Proof.
  intros salts now ev n fx n' T. remember false as sch eqn:Es. destruct T; try reflexivity; try discriminate Es.
  (* left, in the order of `trans`: t_data, t_promote, t_store *)
  - unfold learn. destruct (c_learning _); destruct pl as [[]|pd]; reflexivity.
  - destruct fresh; reflexivity.
  - destruct pl as [[]|pd]; reflexivity.
Qed.

Lemma hk3_next_peers : forall salts now n, n_next_peers (hk3 salts now n) = n_next_peers n.
Proof.
  intros salts now n. refine (reach_inv0 salts now EHousekeep false (fun m => n_next_peers m = n_next_peers n) _ _ _ _ (hk3_path _ _ _ n) eq_refl).
  intros m fx m' T <-. exact (trans_next_peers _ _ _ _ _ _ T).
Qed.

(* every reachable state, whatever the fault flag: a due announcement goes to every peer that is still a peer after the expiry and
   crypto phases of this very tick, once each *)
Theorem reachable_announcement_reaches_every_peer : forall salts c t0 evs now,
  let n := nrun salts (node_new c t0) evs in
  (n_next_peers n <= now)%Z ->
  let n3 := hk3 salts now n in
  let ann := snd (broadcast n3 MESSAGE_TYPE_NODE_INFO (ni_encode (create_node_info n3))) in
  (exists pre post, snd (housekeep salts now n) = pre ++ ann ++ post) /\
  map dst_of ann = map (fun e => Some (fst e)) (n_peers n3).
Proof.
  intros salts c t0 evs now n Hdue. destruct (reachable_se salts c t0 evs) as [Hse Hnd]. fold n in Hse, Hnd.
  apply housekeeping_announces_to_every_peer; [exact Hnd|exact Hse|]. rewrite hk3_next_peers. exact Hdue.
Qed.

(* non-vacuity: in the example state of NextHopProofs an announcement is due at time 5 and goes to the one peer *)
Lemma ex_announcement : (n_next_peers ex_b <= 5)%Z /\
  map dst_of (snd (broadcast (hk3 salts 5 ex_b) MESSAGE_TYPE_NODE_INFO (ni_encode (create_node_info (hk3 salts 5 ex_b))))) = [Some 1001].
Proof. split; vm_compute; [intro H; discriminate H|reflexivity]. Qed.
