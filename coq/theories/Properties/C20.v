(* C20 — Configuration sources combine as documented.
   Pinned statements only.  Strings are tokens; the theorems start from the parsed ConfigFile / Args
   values (YAML and command-line parsing - serde_yaml, structopt - are exercised by the
   correspondence run, which renders every case as YAML text and an argument vector).
   pick a f d = command-line value if given, else file value, else default; picko likewise with
   "not set" as the default. *)
From VpnModel Require Import Base ConfigMerge ConfigProofs Netmask NetmaskProofs.

(* every scalar setting: command line, else file, else the documented default (spec_scalars lists all 25, with the defaults) *)
Theorem C20_precedence : forall f a, spec_scalars f a (effective f a).
Proof. exact precedence_scalars. Qed.

(* one-way switches: --fix-rp-filter/--daemon can only switch on, --no-auto-claim/--no-port-forwarding only off; otherwise file, else default *)
Theorem C20_switches : forall f a,
  let c := effective f a in
  fix_rp_filter c = (a_fix_rp_filter a || pick None (sub (cf_dev f) cfd_fix) false) /\
  auto_claim c = (negb (a_no_auto_claim a) && pick None (cf_auto_claim f) true) /\
  port_forwarding c = (negb (a_no_port_forwarding a) && pick None (cf_port_forwarding f) true) /\
  daemonize c = a_daemon a.
Proof. exact precedence_switches. Qed.

(* peers, claims, advertised addresses, trusted keys: file entries then command-line entries; per-event hooks: command line wins per event, else file *)
Theorem C20_lists_accumulate : forall f a,
  let c := effective f a in
  peers c = ov (cf_peers f) [] ++ a_peers a /\
  claims c = ov (cf_claims f) [] ++ a_claims a /\
  advertise c = ov (cf_advertise f) [] ++ a_advertise a /\
  cc_trusted (crypto c) = cc_trusted (cf_crypto f) ++ a_trusted a /\
  (forall k, hget (hooks c) k = picko (last_event k (a_hook a)) (last_kv k (cf_hooks f))).
Proof. exact lists_accumulate. Qed.

(* (the cipher list is replaced by a non-empty later source, not accumulated - stated as the code has it) *)
Theorem C20_algorithms_replace : forall f a,
  cc_algos (crypto (effective f a)) =
  match a_algos a with [] => (match cc_algos (cf_crypto f) with [] => [] | l => l end) | l => l end.
Proof. exact algorithms_replace. Qed.

(* the plain hook is the last plain --hook, else the previous value *)
Theorem C20_hook_plain : forall l cur, args_hook cur l = picko (last_plain l) cur.
Proof. exact args_hook_spec. Qed.

(* turning a configuration into file form and merging it into the defaults reproduces it (daemonize is command-line only; the hook map has unique keys) *)
Theorem C20_file_roundtrip : forall c, daemonize c = false -> NoDup (map fst (hooks c)) -> file_roundtrip c = c.
Proof. exact file_roundtrip_id. Qed.

(* every prefix length 0..32 gives the mask with that many leading one bits (after the fix of F12 for 0) *)
Theorem C20_netmask : forall p, p <= 32 -> mask_of_prefix p = leading_ones p.
Proof. exact mask_spec. Qed.

(* a successful parse means: prefix <= 32, that mask, address parsed *)
Theorem C20_netmask_result : forall text ip_ok m, parse_ip_netmask text ip_ok = Ok m ->
  exists p, p <= 32 /\ m = leading_ones p /\ ip_ok = true /\
    parse_u8 (len_part text) = Some p.
Proof. exact netmask_result. Qed.

(* /24 when the prefix is omitted *)
Theorem C20_netmask_default : forall text, find_byte 47 text = None ->
  parse_ip_netmask text true = Ok (leading_ones 24).
Proof. exact netmask_default_24. Qed.

Theorem C20_netmask_overlong : forall text ip_ok p,
  parse_u8 (len_part text) = Some p ->
  32 < p -> parse_ip_netmask text ip_ok = Err 1.
Proof. exact netmask_overlong. Qed.

Theorem C20_netmask_no_panic : forall text ip_ok, is_panic (parse_ip_netmask text ip_ok) = false.
Proof. exact netmask_no_panic. Qed.

Example C20_ex_precedence :
  let f := {| cf_dev := None; cf_ip := Some 5; cf_advertise := None; cf_ifup := None; cf_ifdown := None; cf_crypto := default_crypto;
              cf_listen := Some 6; cf_peers := Some [1; 2]; cf_peer_timeout := None; cf_keepalive := None; cf_beacon_ := None;
              cf_mode := None; cf_switch_timeout := None; cf_claims := None; cf_auto_claim := None; cf_port_forwarding := Some false;
              cf_pid_file := None; cf_stats_file := None; cf_statsd_ := None; cf_user := None; cf_group := None; cf_hook := None;
              cf_hooks := [(1, 10)] |} in
  let a := {| a_type := None; a_device := None; a_device_path := None; a_fix_rp_filter := false; a_ip := Some 7; a_ifup := None;
              a_advertise := []; a_ifdown := None; a_listen := None; a_peers := [3]; a_peer_timeout := None; a_keepalive := None;
              a_beacon_store := None; a_beacon_load := None; a_beacon_interval := None; a_beacon_password := None; a_mode := None;
              a_switch_timeout := None; a_claims := []; a_no_auto_claim := false; a_no_port_forwarding := false; a_daemon := false;
              a_pid_file := None; a_stats_file := None; a_statsd_server := None; a_statsd_prefix := None; a_user := None; a_group := None;
              a_password := None; a_public_key := None; a_private_key := None; a_trusted := []; a_algos := [];
              a_hook := [HEvent 1 11; HPlain 12] |} in
  let c := effective f a in
  ip c = Some 7 /\ listen c = 6 /\ peers c = [1; 2; 3] /\ peer_timeout c = 300 /\ port_forwarding c = false /\
  hook c = Some 12 /\ hooks c = [(1, 11)] /\ file_roundtrip c = c.
Proof. vm_compute. repeat split; reflexivity. Qed.

Print Assumptions C20_precedence.
Print Assumptions C20_switches.
Print Assumptions C20_lists_accumulate.
Print Assumptions C20_algorithms_replace.
Print Assumptions C20_hook_plain.
Print Assumptions C20_file_roundtrip.
Print Assumptions C20_netmask.
Print Assumptions C20_netmask_result.
Print Assumptions C20_netmask_default.
Print Assumptions C20_netmask_overlong.
Print Assumptions C20_netmask_no_panic.
