(* C14 — Full mesh from any connected bootstrap; a node never peers with itself.
   Pinned statements only.
   PARTIAL: the closure theorem is about the abstract exchange step (a node learns the peers of its
   peers and dials them); that the real nodes perform that step within the announce interval,
   also behind address-filtering NATs, is decided by the executed correspondence over all connected
   bootstrap graphs of 2-4 nodes, sampled 5-node graphs and NAT scenarios (py/props/c14.py). *)
From VpnModel Require Import Base Conn PeerCrypto NodeInfo Table Node NodeProofs TrustProofs NextHopProofs PcInvariant AdmissionProofs SelfProofs OwnAddrProofs.

(* a handshake message carrying the node's own id is rejected at every stage, by whatever address it arrived (after the fix of F13): object unchanged, no reply *)
Theorem C14_own_message_rejected : forall ok s m, im_node m = i_node s ->
  (snd (fst (handle_init ok s m)) = Err 1 \/ snd (fst (handle_init ok s m)) = Err 2) /\
  fst (fst (handle_init ok s m)) = s /\ snd (handle_init ok s m) = None.
Proof. exact own_message_rejected. Qed.

(* WHOLE RUNS: every peer of every reachable node state (any events, times, salts) was admitted by a handshake message carrying ANOTHER node's id - a node never peers with itself, through whatever address its own messages come back (every handshake object keeps the node number it was created with: the object invariant `created own_id` of AdmissionProofs.v, an instance of PcInvariant.v; a handshake completes only on a message of another node: success_not_self) *)
Theorem C14_never_peers_with_itself : forall salts c t0 evs a,
  ahas (n_peers (nrun salts (node_new c t0) evs)) a = true ->
  exists now m, In (now, ENet a (WInit m)) evs /\ im_node m <> c_num c.
Proof. exact never_peers_with_itself. Qed.

(* WHOLE RUNS, the address side: in every reachable node state the own-address list contains every address the node was configured to advertise and its socket address (OW: the list only grows - addresses reported under the own id are adopted - or is reset to exactly the configured list) *)
Theorem C14_own_addresses_known : forall salts c t0 evs, OW (nrun salts (node_new c t0) evs).
Proof. exact reachable_ow. Qed.

(* ... so in every reachable state dialling one of the configured own addresses sends nothing and changes nothing *)
Theorem C14_never_dials_own_address : forall salts c t0 evs a,
  let n := nrun salts (node_new c t0) evs in
  In a (c_advertise (n_cfg n) ++ [c_addr (n_cfg n)]) -> connect_sock salts n a = (n, []).
Proof. exact never_dials_own_address. Qed.

(* addresses listed under the node's own id are added to its own addresses, nothing is dialled, no peer or pending entry appears *)
Theorem C14_own_addresses_adopted : forall salts n p, pi_node p = Some (node_id_bytes (c_num (n_cfg n))) ->
  existsb (fun a => ahas (n_peers n) a) (map addr_of_bytes (pi_addrs p)) = false ->
  let r := connect_to_peers salts n [p] in
  snd r = [] /\ n_peers (fst r) = n_peers n /\ n_pending (fst r) = n_pending n /\
  (forall a, In a (map addr_of_bytes (pi_addrs p)) -> memN a (n_own (fst r)) = true).
Proof. exact adopt_own_addresses. Qed.

(* non-vacuity *)
Example C14_ex_own : In 1002 (c_advertise (n_cfg ex_b) ++ [c_addr (n_cfg ex_b)]) /\ memN 1002 (n_own ex_b) = true.
Proof. exact ex_own. Qed.

(* one peer-exchange round: whoever is connected to a neighbour of mine becomes my neighbour
   (NodeProofs.exchange).  Two nodes joined by a path of k+1 connections are directly connected after
   k rounds: a connected set of n nodes is fully meshed after at most n-2 rounds. *)
Theorem C14_closure : forall (V : Type) k (E : graph V) u w, path V E (S k) u w -> path V (rounds V k E) 1 u w.
Proof. exact exchange_closure. Qed.
Theorem C14_round_shortens : forall (V : Type) (E : graph V) k u w, path V E (S (S k)) u w -> path V (exchange V E) (S k) u w.
Proof. exact exchange_shortens. Qed.
Print Assumptions C14_closure.
Print Assumptions C14_round_shortens.

Print Assumptions C14_own_message_rejected.
Print Assumptions C14_never_peers_with_itself.
Print Assumptions C14_own_addresses_known.
Print Assumptions C14_never_dials_own_address.
Print Assumptions C14_own_addresses_adopted.
