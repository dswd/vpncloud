(* C02 — Payload travels sealed: confidential, tamper-evident, delivered byte-identical.
   Pinned statements only.  The AEAD is the ideal one of the model (Core.v: Seal k n p opens only
   under the same key and nonce, every altered ciphertext/tag is Junk); that ring's ciphers realise
   it is the cryptographic assumption of the trusted base, and the correspondence check runs the
   real ciphers on the same flips, truncations, reflections and cross-injections.
   PARTIAL: "cleartext never appears on the wire" is a statement about the real cipher output; the
   theorem below shows every emitted datagram is a seal of the payload, the byte-level absence of
   the cleartext is checked on the real datagrams by py/props/c02.py. *)
From VpnModel Require Import Base Nonce NonceProofs Replay Core CoreProofs Conn PeerCrypto SealProofs Table Node NodeProofs EndToEndProofs NextHopProofs SealedWireProofs.

(* what one end seals the other end opens byte-identical (same key under the key id, nonce reconstructible, window admits) *)
Theorem C02_core_roundtrip : forall c1 c2 p, wf_core c1 -> wf_core c2 ->
  s_key (get_slot c2 (current c1)) = s_key (get_slot c1 (current c1)) ->
  let n' := nonce_increment (s_send (get_slot c1 (current c1))) in
  nonce_rebuild (half c2) (nonce_wire n') = n' ->
  accepts (s_win (get_slot c2 (current c1))) (be_val n') = true ->
  snd (core_decrypt c2 (snd (core_encrypt c1 p))) = Ok p.
Proof. exact core_roundtrip. Qed.

(* the nonce premise holds for every counter that fits the 56 transmitted bits, the receiver being the opposite half *)
Theorem C02_nonce_reconstructed : forall (hf : bool) lo, length lo = 7%nat -> all_bytes lo -> Exists (fun b => b <> 255) lo ->
  let n := (if hf then 128 else 0) :: [0; 0; 0; 0] ++ lo in
  nonce_rebuild (negb hf) (nonce_wire (nonce_increment n)) = nonce_increment n /\
  length (nonce_increment n) = 12%nat.
Proof. exact rebuild_after_increment. Qed.

(* unless plain, everything PeerCrypto sends is a datagram produced by the core seal *)
Theorem C02_pc_sealed : forall p ty body p' w, pc_plain p = false -> pc_seal p ty body = (p', Ok w) ->
  exists c, pc_core p = Some c /\ w = WData (snd (core_encrypt c (ty :: body))) /\
            pc_core p' = Some (fst (core_encrypt c (ty :: body))).
Proof. exact pc_seal_sealed. Qed.

(* and that datagram is key id, 7 counter bytes and the AEAD seal of (type :: body) under the current key *)
Theorem C02_wire_shape : forall c pl, exists keyid ctr7 k n j,
  snd (core_encrypt c pl) = DG keyid ctr7 (Seal k n pl) j /\ k = s_key (get_slot c (current c)).
Proof. exact sealed_wire_shape. Qed.

(* end to end at the PeerCrypto level: the receiver reports exactly the type and bytes sent *)
Theorem C02_pc_roundtrip : forall ok p1 p2 c1 c2 ty body p1' w, pc_plain p1 = false -> pc_plain p2 = false ->
  pc_core p1 = Some c1 -> pc_core p2 = Some c2 -> wf_core c1 -> wf_core c2 ->
  s_key (get_slot c2 (current c1)) = s_key (get_slot c1 (current c1)) ->
  let n' := nonce_increment (s_send (get_slot c1 (current c1))) in
  nonce_rebuild (half c2) (nonce_wire n') = n' ->
  accepts (s_win (get_slot c2 (current c1))) (be_val n') = true ->
  (ty =? MESSAGE_TYPE_ROTATION) = false ->
  pc_seal p1 ty body = (p1', Ok w) ->
  snd (fst (pc_handle ok p2 w)) = Ok (MMessage ty body).
Proof. exact pc_roundtrip. Qed.

(* node to node: the receiving node hands to its interface exactly the bytes the sending node read from its interface *)
Theorem C02_node_end_to_end : forall salts now now' nA nB frame s d s' d' addrA addrB pdA pdB cA cB tA',
  parse_frame (n_cfg nA) frame = Ok (s, d) ->
  table_lookup (n_table nA) now d = (Some addrB, tA') ->
  aget (n_peers nA) addrB = Some pdA -> pc_plain (p_crypto pdA) = false -> pc_core (p_crypto pdA) = Some cA ->
  aget (n_peers nB) addrA = Some pdB -> aget (n_pending nB) addrA = None ->
  pc_plain (p_crypto pdB) = false -> pc_core (p_crypto pdB) = Some cB ->
  in_sync cA cB ->
  parse_frame (n_cfg nB) frame = Ok (s', d') ->
  exists w, snd (handle_iface salts now nA frame) = [XSend addrB w] /\
            snd (handle_net salts now' nB addrA w) = [XWrite frame].
Proof. exact unicast_end_to_end. Qed.

(* the node writes to its interface exactly the body of a DATA message, or nothing *)
Theorem C02_interface_gets_body : forall salts now n src body reply,
  snd (handle_result salts now n src (MMessage MESSAGE_TYPE_DATA body) reply) = [XWrite body] \/
  snd (handle_result salts now n src (MMessage MESSAGE_TYPE_DATA body) reply) = [].
Proof. exact data_no_relay. Qed.

(* a datagram opens iff key id in range, genuine seal under the slot key and reconstructed nonce, window admits *)
Theorem C02_open_iff : forall c keyid ctr7 x j p, wf_core c ->
  snd (core_decrypt c (DG keyid ctr7 x j)) = Ok p <->
  (keyid < 4 /\ x = Seal (s_key (get_slot c keyid)) (nonce_rebuild (half c) ctr7) p /\
   accepts (s_win (get_slot c keyid)) (be_val (nonce_rebuild (half c) ctr7)) = true).
Proof. exact (fun c keyid ctr7 x j p _ => decrypt_ok_iff c keyid ctr7 x j p). Qed.

(* reflected back to its own sender: never opens (own half never reconstructed) *)
Theorem C02_reflected : forall c p, wf_core c ->
  nth_b 0%nat (nonce_increment (s_send (get_slot c (current c)))) = (if half c then 128 else 0) ->
  is_ok (snd (core_decrypt (fst (core_encrypt c p)) (snd (core_encrypt c p)))) = false.
Proof. exact (fun c p _ => reflected_never_opens c p). Qed.

(* sealed for a different connection (different key): never opens *)
Theorem C02_foreign : forall c keyid ctr7 k nn p j, wf_core c -> keyid < 4 ->
  k <> s_key (get_slot c keyid) -> is_ok (snd (core_decrypt c (DG keyid ctr7 (Seal k nn p) j))) = false.
Proof. exact (fun c keyid ctr7 k nn p j _ _ => foreign_key_never_opens c keyid ctr7 k nn p j). Qed.

(* any bit flip in ciphertext or tag: never opens *)
Theorem C02_altered : forall c d pos bit, (8 <= pos)%nat ->
  is_ok (snd (core_decrypt c (dgram_flip d pos bit))) = false.
Proof. exact altered_never_opens. Qed.

(* truncated: never opens *)
Theorem C02_truncated : forall c d len, (len < dgram_len d)%nat -> is_ok (snd (core_decrypt c (dgram_truncate d len))) = false.
Proof. exact truncated_never_opens. Qed.

(* a datagram that does not open is an ordinary error with no reply *)
Theorem C02_rejected_silently : forall ok p c d, pc_plain p = false -> pc_core p = Some c ->
  is_ok (snd (core_decrypt c d)) = false ->
  snd (fst (pc_handle ok p (WData d))) = Err 1 /\ snd (pc_handle ok p (WData d)) = None.
Proof. exact pc_reject_silent. Qed.

(* and leaves the crypto core untouched *)
Theorem C02_rejected_unchanged : forall c d, is_ok (snd (core_decrypt c d)) = false -> fst (core_decrypt c d) = c.
Proof. exact decrypt_fail_unchanged. Qed.

(* NODE, every reachable state: a node whose configuration does not allow the plain algorithm never emits an unencrypted message, never puts its node information (addresses, claims, peer list) into a handshake message unsealed, and never holds an unencrypted connection - for every sequence of events (datagrams of any content from any source, interface reads, housekeeping, dials), at any times, with any handshake salts.  Invariant NE of every node step: each connection and handshake object keeps plain = false; a handshake object that is to answer with a payload already holds the negotiated cipher (IE), because select_algorithm cannot answer plain unless the own configuration allows it *)
Theorem C02_no_cleartext_ever : forall salts c t0 evs, a_plain (c_algos c) = false ->
  (forall dst w, In (XSend dst w) (nrun_fx salts (node_new c t0) evs) ->
     match w with
     | WPlain _ => False                                             (* never an unencrypted message *)
     | WInit m => match im_payload m with Some (PPlain _) => False | _ => True end   (* node information in a handshake message: absent or sealed *)
     | _ => True
     end) /\
  (forall a pd, aget (n_peers (nrun salts (node_new c t0) evs)) a = Some pd -> pc_plain (p_crypto pd) = false).
Proof. exact no_cleartext_ever. Qed.

(* header flips (key id, counter) are covered by C02_open_iff: the key id selects another slot (other
   key or none), a counter flip changes the reconstructed nonce, so the seal no longer matches *)
Example C02_ex_roundtrip :
  let k := 7 in let r := [1;2;3;4;5;6] in
  let a := core_new k 99 true r r r r in
  let b := core_new k 98 false r r r r in
  snd (core_decrypt b (snd (core_encrypt a [9;9;9]))) = Ok [9;9;9] /\
  is_ok (snd (core_decrypt a (snd (core_encrypt a [9;9;9])))) = false.
Proof. vm_compute. split; reflexivity. Qed.

(* the example node of NextHopProofs (plain not allowed) emits a handshake message with a sealed payload: C02_no_cleartext_ever is not vacuous *)
Example C02_ex_sealed_payload : a_plain (c_algos cB) = false /\
  existsb (fun e => match e with XSend _ (WInit m) => match im_payload m with Some (PSealed _) => true | _ => false end | _ => false end)
          (nrun_fx salts (node_new cB 1) ex_evs) = true.
Proof. exact ex_sealed_payload. Qed.

Print Assumptions C02_core_roundtrip.
Print Assumptions C02_nonce_reconstructed.
Print Assumptions C02_pc_sealed.
Print Assumptions C02_wire_shape.
Print Assumptions C02_pc_roundtrip.
Print Assumptions C02_node_end_to_end.
Print Assumptions C02_interface_gets_body.
Print Assumptions C02_open_iff.
Print Assumptions C02_reflected.
Print Assumptions C02_foreign.
Print Assumptions C02_altered.
Print Assumptions C02_truncated.
Print Assumptions C02_rejected_silently.
Print Assumptions C02_rejected_unchanged.
Print Assumptions C02_no_cleartext_ever.
