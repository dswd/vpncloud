(* C09 — Established connections survive forged and replayed traffic.
   Pinned statements only.  What a party without a trusted key can fabricate is (a) unverifiable
   datagrams (C08) and (b) verbatim replays of genuine datagrams.  (a) leaves no trace; a replayed
   handshake message to an established peer whose own handshake object is gone is answered by a new
   pending object that never touches the established entry (after the fix of F8) and is reaped; a
   replayed data or rotation datagram is subject to the replay window (C03) and the duplicate
   rotation rule (C07).
   PARTIAL: the end-to-end statement "payload keeps flowing both ways during and after the attack"
   is decided by the executed correspondence (py/props/c09.py re-injects every captured datagram
   at several offsets from three source choices and then runs a 400 s probe phase). *)
From VpnModel Require Import Base Nonce Replay ReplayProofs Core CoreProofs Conn PeerCrypto Node NodeProofs Rotation2 Rotation2Proofs NodeInfo Table SurviveProofs.

(* HEADLINE: whatever datagram arrives from whatever claimed source, every established peer stays a peer, unless the datagram OPENED (genuine seal under the connection key and admitted by the replay window: C02/C03) as a CLOSE message of that very peer *)
Theorem C09_established_peer_survives : forall salts now n src w a,
  ahas (n_peers n) a = true ->
  ahas (n_peers (fst (handle_net salts now n src w))) a = true \/
  (a = src /\ exists pc r, snd (fst (pc_handle payload_ok pc w)) = Ok r /\ is_close r = true).
Proof. exact established_peer_survives. Qed.

(* after the crypto layer a peer entry is removed only by a CLOSE message, and only the sender's *)
Theorem C09_close_only : forall salts now n src r reply a, ahas (n_peers n) a = true ->
  ahas (n_peers (fst (handle_result salts now n src r reply))) a = true \/ (a = src /\ is_close r = true).
Proof. exact handle_result_keeps. Qed.

(* forged datagrams: no trace, from any claimed source *)
Theorem C09_forged_no_trace : forall salts now l n, Forall (fun x => unverifiable (snd x)) l -> all_encrypted n ->
  same_state n (fst (inject_all salts now n l)) /\ snd (inject_all salts now n l) = [].
Proof. exact unverifiable_sequence. Qed.

(* a replayed (genuine, verifying) handshake message from the address of an established peer: peer entry, routes and own addresses unchanged, only replies are emitted *)
Theorem C09_replayed_init_keeps_peer : forall salts now n src m pd,
  aget (n_peers n) src = Some pd -> pc_has_init (p_crypto pd) = false -> aget (n_pending n) src = None ->
  let r := handle_net salts now n src (WInit m) in
  n_peers (fst r) = n_peers n /\ n_table (fst r) = n_table n /\ n_own (fst r) = n_own n /\
  Forall (fun e => is_send e = true) (snd r).
Proof. exact replayed_init_keeps_peer. Qed.

(* reaping the pending handshakes such replays create never touches peers or routes *)
Theorem C09_pending_reap_keeps_peer : forall l n,
  n_peers (fold_left (fun m addr => upd m (n_peers m) (adel (n_pending m) addr) (n_own m) (n_table m)) l n) = n_peers n /\
  n_table (fold_left (fun m addr => upd m (n_peers m) (adel (n_pending m) addr) (n_own m) (n_table m)) l n) = n_table n.
Proof. exact fold_adel_pending_peers. Qed.

(* a replayed data datagram is dropped once two housekeeping ticks passed (C03) *)
Theorem C09_replayed_data_dies : forall h m n rest,
  pos_hist h -> 1 <= m -> n <= m -> accepts (after h) m = true -> pos_hist rest ->
  accepts (snd (run (after (h ++ [Deliver m; Tick; Tick])) rest)) n = false.
Proof. exact (fun h m n rest Hp Hm Hnm Hacc _ => dies_in_two_ticks h m n rest Hp Hm Hnm Hacc). Qed.

(* and a dropped datagram leaves the core as it was *)
Theorem C09_replayed_data_no_state : forall c d, is_ok (snd (core_decrypt c d)) = false -> fst (core_decrypt c d) = c.
Proof. exact decrypt_fail_unchanged. Qed.

(* a re-delivered rotation message changes nothing (C07) *)
Theorem C09_replayed_rotation : forall n seen S R toS toR m, Shape n seen S R toS toR -> In m toS ->
  rend_deliver S m = Ok S.
Proof. exact duplicate_harmless_S. Qed.

Print Assumptions C09_established_peer_survives.
Print Assumptions C09_close_only.
Print Assumptions C09_forged_no_trace.
Print Assumptions C09_replayed_init_keeps_peer.
Print Assumptions C09_pending_reap_keeps_peer.
Print Assumptions C09_replayed_data_dies.
Print Assumptions C09_replayed_data_no_state.
Print Assumptions C09_replayed_rotation.
