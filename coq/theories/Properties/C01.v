(* C01 — Only holders of a mutually trusted key can become peers.
   Pinned statements only.  A handshake datagram whose signature does not verify under a key the
   receiver trusts is the wire value WBadInit of the model (random bytes with the init marker, any
   flip/truncation/edit of a genuine message, a message signed by an unknown key): the byte-level
   parser InitMsg.read_from maps all of those to an error before any field is used (C16 ties that
   parser to the code); a well-formed message signed with a key outside the trusted list is WInit m
   with im_signer m not in i_trusted.
   PARTIAL: "two nodes become peers exactly when each trusts the other" has a liveness direction
   (trust => they do become peers) that is decided by the executed correspondence over all trust
   relations (py/props/c01.py), not by a theorem. *)
From VpnModel Require Import Base Core Conn PeerCrypto Table Node NodeProofs InitProofs TrustProofs NextHopProofs PcInvariant AdmissionProofs.

(* a message signed with a key outside the trusted list: rejected, state untouched, no reply *)
Theorem C01_untrusted_signer_rejected : forall ok s m, existsb (N.eqb (im_signer m)) (i_trusted s) = false ->
  handle_init ok s m = (s, Err 1, None).
Proof. exact untrusted_rejected. Qed.

(* a handshake object completes only on a message signed by a trusted key *)
Theorem C01_success_needs_trust : forall ok s m p ini, snd (fst (handle_init ok s m)) = Ok (ISuccess p ini) ->
  existsb (N.eqb (im_signer m)) (i_trusted s) = true.
Proof. exact success_needs_trust. Qed.

(* PeerCrypto reports Initialized (the only result that creates a peer) only for such a message *)
Theorem C01_initialized_needs_trust : forall ok p w p' r rep, pc_handle ok p w = (p', Ok r, rep) -> is_initialized r = true ->
  exists i m, w = WInit m /\ pc_init p = Some i /\ existsb (N.eqb (im_signer m)) (i_trusted i) = true.
Proof. exact pc_initialized_needs_trust. Qed.

(* node level: a new peer entry appears only for the sender of a trusted, verified handshake message *)
Theorem C01_peer_needs_trust : forall salts now n src w a,
  ahas (n_peers n) a = false -> ahas (n_peers (fst (handle_net salts now n src w))) a = true ->
  a = src /\ exists pc i m, answering_object salts n src pc /\ w = WInit m /\ pc_init pc = Some i /\
                            existsb (N.eqb (im_signer m)) (i_trusted i) = true.
Proof. exact peer_creation_needs_trust. Qed.

(* object level: unverifiable input leaves every handshake stage exactly as it was, no reply *)
Theorem C01_unverifiable_object : forall ok p w, unverifiable w -> pc_plain p = false ->
  pc_handle ok p w = (p, Err 1, None).
Proof. exact pc_handle_unverifiable. Qed.

(* node level (unknown sender / pending / established): no peer, no pending entry, no table change, no effect *)
Theorem C01_unverifiable_node : forall salts now n src w, unverifiable w -> all_encrypted n ->
  same_state n (fst (handle_net salts now n src w)) /\ snd (handle_net salts now n src w) = [].
Proof. exact unverifiable_no_residue. Qed.

(* any sequence of such datagrams from any sources *)
Theorem C01_unverifiable_sequence : forall salts now l n, Forall (fun x => unverifiable (snd x)) l -> all_encrypted n ->
  same_state n (fst (inject_all salts now n l)) /\ snd (inject_all salts now n l) = [].
Proof. exact unverifiable_sequence. Qed.

(* WHOLE RUNS: every peer a node has in any reachable state (any events, times, salts) was admitted by a handshake message that arrived from that very address and verified under a key of the node's trusted list (its own key if none is configured) - induction over arbitrary event sequences; only datagrams can make a peer (interface reads, housekeeping, dials never do), and every handshake object keeps the trusted list it was created with (the object invariant `created own_id` of AdmissionProofs.v, an instance of PcInvariant.v) *)
Theorem C01_every_peer_was_admitted : forall salts c t0 evs a,
  ahas (n_peers (nrun salts (node_new c t0) evs)) a = true ->
  exists now m, In (now, ENet a (WInit m)) evs /\ existsb (N.eqb (im_signer m)) (eff_trusted c) = true.
Proof. exact every_peer_was_admitted. Qed.

(* the object invariant behind it, for every reachable state: every connection / handshake object of the node carries exactly the configured trusted keys *)
Theorem C01_objects_keep_trusted_list : forall c salts t0 evs,
  let n := nrun salts (node_new c t0) evs in
  n_cfg n = c /\
  (forall a pc i, aget (n_pending n) a = Some pc -> pc_init pc = Some i -> i_trusted i = eff_trusted c) /\
  (forall a pd i, aget (n_peers n) a = Some pd -> pc_init (p_crypto pd) = Some i -> i_trusted i = eff_trusted c).
Proof. exact reachable_ti. Qed.

(* non-vacuity: what `unverifiable` covers *)
Example C01_ex_unverifiable : unverifiable WBadInit /\ unverifiable (WData (DShort 3)) /\ unverifiable WEmpty.
Proof. repeat split. Qed.

(* the reachable example state of NextHopProofs has a peer (admitted by A's ping and peng): C01_every_peer_was_admitted is not vacuous *)
Example C01_ex_peer : ahas (n_peers (nrun salts (node_new cB 1) ex_evs)) 1001 = true.
Proof. exact (proj2 (proj2 ex_reachable_selects)). Qed.

Print Assumptions C01_untrusted_signer_rejected.
Print Assumptions C01_success_needs_trust.
Print Assumptions C01_initialized_needs_trust.
Print Assumptions C01_peer_needs_trust.
Print Assumptions C01_unverifiable_object.
Print Assumptions C01_unverifiable_node.
Print Assumptions C01_unverifiable_sequence.
Print Assumptions C01_every_peer_was_admitted.
Print Assumptions C01_objects_keep_trusted_list.
