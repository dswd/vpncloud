(* C06 — Cipher negotiation is symmetric and cannot be downgraded.  Pinned statements only.
   Speeds are f32 bit patterns of non-negative, non-NaN floats (their order is the numeric order);
   lists are duplicate-free in the cipher id (NoDup (ids _)), as parse_algorithms / the wire decoder
   of an honest peer produce them. *)
From VpnModel Require Import Base Core Conn PeerCrypto NegotiateProofs Table Node NextHopProofs SealedWireProofs.
From Coq Require Import Permutation.

Theorem C06_plain_iff : forall own peer,
  select_algorithm own peer = Ok None <-> (a_plain own = true /\ a_plain peer = true).
Proof. exact plain_iff. Qed.

Theorem C06_fail_iff : forall own peer, NoDup (ids (a_list own)) -> NoDup (ids (a_list peer)) ->
  ((exists c, select_algorithm own peer = Err c) <->
   (a_plain own && a_plain peer = false /\ forall a, ~ (In a (ids (a_list own)) /\ In a (ids (a_list peer))))).
Proof. exact (fun own peer _ _ => fail_iff own peer). Qed.

Theorem C06_best_minspeed : forall own peer a s, NoDup (ids (a_list own)) -> NoDup (ids (a_list peer)) ->
  select_algorithm own peer = Ok (Some (a, s)) ->
  (exists s1 s2, In (a, s1) (a_list own) /\ In (a, s2) (a_list peer) /\ s = minsp s1 s2) /\
  (forall a' s1 s2, In (a', s1) (a_list own) -> In (a', s2) (a_list peer) -> minsp s1 s2 <= s).
Proof. exact (fun own peer a s _ => best_minspeed own peer a s). Qed.

(* both ends (each with its own list as `own`) obtain the same result *)
Theorem C06_symmetric : forall own peer, NoDup (ids (a_list own)) -> NoDup (ids (a_list peer)) ->
  select_algorithm own peer = select_algorithm peer own \/
  (exists c c', select_algorithm own peer = Err c /\ select_algorithm peer own = Err c').
Proof. exact select_symmetric. Qed.

(* the outcome depends on the two advertised sets and speeds only, not on list order *)
Theorem C06_order_independent : forall own own' peer peer',
  NoDup (ids (a_list own)) -> NoDup (ids (a_list peer)) ->
  Permutation (a_list own) (a_list own') -> Permutation (a_list peer) (a_list peer') ->
  a_plain own = a_plain own' -> a_plain peer = a_plain peer' ->
  select_algorithm own peer = select_algorithm own' peer' \/
  (exists c c', select_algorithm own peer = Err c /\ select_algorithm own' peer' = Err c').
Proof. exact (fun own own' peer peer' _ => select_order_independent own own' peer peer'). Qed.

(* an altered list in transit is an altered signed message: it does not verify and is dropped
   without touching the handshake (the signature covers the whole message; modelling decision WBadInit) *)
Theorem C06_transit_edit_dropped : forall payload_ok p, pc_handle payload_ok p WBadInit = (p, Err 1, None).
Proof. intros payload_ok p. unfold pc_handle. destruct (pc_init p); reflexivity. Qed.

(* NODE, every reachable state: the negotiation never falls back to "plain" on a node that does not allow it - whatever the peers
   offer, whatever arrives, in whatever order: no unencrypted message leaves, no node information travels unsealed, no peer's
   connection is unencrypted *)
Theorem C06_never_plain_unless_allowed : forall salts c t0 evs, a_plain (c_algos c) = false ->
  (forall dst w, In (XSend dst w) (nrun_fx salts (node_new c t0) evs) ->
     match w with
     | WPlain _ => False
     | WInit m => match im_payload m with Some (PPlain _) => False | _ => True end
     | _ => True
     end) /\
  (forall a pd, aget (n_peers (nrun salts (node_new c t0) evs)) a = Some pd -> pc_plain (p_crypto pd) = false).
Proof. exact no_cleartext_ever. Qed.

Example C06_ex_tie :
  let a := {| a_list := [(1, 600); (2, 600)]; a_plain := false |} in
  let b := {| a_list := [(2, 600); (1, 600)]; a_plain := false |} in
  select_algorithm a b = Ok (Some (1, 600)) /\ select_algorithm b a = Ok (Some (1, 600)).
Proof. vm_compute. split; reflexivity. Qed.

Print Assumptions C06_plain_iff.
Print Assumptions C06_fail_iff.
Print Assumptions C06_best_minspeed.
Print Assumptions C06_symmetric.
Print Assumptions C06_order_independent.
Print Assumptions C06_transit_edit_dropped.
Print Assumptions C06_never_plain_unless_allowed.
