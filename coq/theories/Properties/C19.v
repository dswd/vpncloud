(* C19 — Address dissection of frames and packets is exact and total.
   Only pinned statements, each closed by `exact <lemma>`; proofs live in DissectProofs.v. *)
From VpnModel Require Import Base Dissect DissectProofs.

(* shorter than an Ethernet header: rejected *)
Theorem C19_frame_short : forall d : bytes, (length d < 14)%nat -> frame_parse d = Err 1.
Proof. exact frame_short. Qed.

(* ethertype <> 0x8100: exactly the MAC pair at offsets 6 and 0, whatever follows *)
Theorem C19_frame_untagged : forall dst src e0 e1 rest,
  length dst = 6%nat -> length src = 6%nat -> (e0, e1) <> (129, 0) ->
  frame_parse (dst ++ src ++ e0 :: e1 :: rest) = Ok (src, dst).
Proof. exact frame_untagged. Qed.

(* 802.1Q tag but no room for the tag-control bytes: rejected *)
Theorem C19_frame_tag_short : forall dst src rest,
  length dst = 6%nat -> length src = 6%nat -> (length rest < 2)%nat ->
  frame_parse (dst ++ src ++ 129 :: 0 :: rest) = Err 2.
Proof. exact frame_tag_short. Qed.

(* one 802.1Q tag: MAC pair extended by the 12-bit VLAN id (PCP/DEI bits dropped), VLAN 0 folded
   into the untagged form; nested tags (inside rest) are never looked at *)
Theorem C19_frame_tagged : forall dst src a b rest,
  length dst = 6%nat -> length src = 6%nat -> a < 256 -> b < 256 ->
  frame_parse (dst ++ src ++ 129 :: 0 :: a :: b :: rest) =
    if vid a b =? 0 then Ok (src, dst)
    else Ok (be_enc 2 (vid a b) ++ src, be_enc 2 (vid a b) ++ dst).
Proof. exact (fun dst src a b rest Hd Hs _ => frame_tagged dst src a b rest Hd Hs). Qed.

(* the four cases above cover every byte string *)
Theorem C19_frame_shape : forall d : bytes, (14 <= length d)%nat ->
  exists dst src e0 e1 rest, length dst = 6%nat /\ length src = 6%nat /\ d = dst ++ src ++ e0 :: e1 :: rest.
Proof. exact frame_shape. Qed.

Theorem C19_frame_no_panic : forall d, is_panic (frame_parse d) = false.
Proof. exact frame_no_panic. Qed.

Theorem C19_packet_empty : packet_parse [] = Err 3.
Proof. exact packet_empty. Qed.

Theorem C19_packet_v4 : forall src dst rest b0 h,
  b0 / 16 = 4 -> length (b0 :: h) = 12%nat -> length src = 4%nat -> length dst = 4%nat ->
  packet_parse ((b0 :: h) ++ src ++ dst ++ rest) = Ok (src, dst).
Proof. exact packet_v4. Qed.

Theorem C19_packet_v6 : forall src dst rest b0 h,
  b0 / 16 = 6 -> length (b0 :: h) = 8%nat -> length src = 16%nat -> length dst = 16%nat ->
  packet_parse ((b0 :: h) ++ src ++ dst ++ rest) = Ok (src, dst).
Proof. exact packet_v6. Qed.

Theorem C19_packet_v4_short : forall b0 t, b0 / 16 = 4 -> (length (b0 :: t) < 20)%nat -> packet_parse (b0 :: t) = Err 4.
Proof. exact packet_v4_short. Qed.

Theorem C19_packet_v6_short : forall b0 t, b0 / 16 = 6 -> (length (b0 :: t) < 40)%nat -> packet_parse (b0 :: t) = Err 5.
Proof. exact packet_v6_short. Qed.

Theorem C19_packet_other : forall b0 t, b0 / 16 <> 4 -> b0 / 16 <> 6 -> packet_parse (b0 :: t) = Err 6.
Proof. exact packet_other. Qed.

Theorem C19_packet_no_panic : forall d, is_panic (packet_parse d) = false.
Proof. exact packet_no_panic. Qed.

(* non-vacuity: concrete frames / packets meeting the hypotheses *)
Example C19_ex_tagged :
  frame_parse ([6;5;4;3;2;1] ++ [1;2;3;4;5;6] ++ 129 :: 0 :: 100 :: 210 :: [1;2;3]) =
  Ok ([4;210;1;2;3;4;5;6], [4;210;6;5;4;3;2;1]).
Proof. vm_compute. reflexivity. Qed.
Example C19_ex_v4 :
  packet_parse ((69 :: [0;0;0;0;0;0;0;0;0;0;0]) ++ [192;168;1;1] ++ [192;168;1;2] ++ []) = Ok ([192;168;1;1], [192;168;1;2]).
Proof. vm_compute. reflexivity. Qed.

Print Assumptions C19_frame_short.
Print Assumptions C19_frame_untagged.
Print Assumptions C19_frame_tag_short.
Print Assumptions C19_frame_tagged.
Print Assumptions C19_frame_shape.
Print Assumptions C19_frame_no_panic.
Print Assumptions C19_packet_empty.
Print Assumptions C19_packet_v4.
Print Assumptions C19_packet_v6.
Print Assumptions C19_packet_v4_short.
Print Assumptions C19_packet_v6_short.
Print Assumptions C19_packet_other.
Print Assumptions C19_packet_no_panic.
