(* C15 — Silent peers time out; healthy peers never do, for every timeout setting.
   Pinned statements only.  All configurable values are u16 seconds (N here, the u16 arithmetic of
   the code after the fix of F7 is saturating subtraction: Interval.sat_sub).
   PARTIAL: "in a mesh with stable membership on a delivering network no healthy peer is ever timed
   out" combines interval_safe with message delivery; it is decided by the executed correspondence
   on heterogeneous meshes for the grid of timeout/keepalive values (py/props/c15.py). *)
From VpnModel Require Import Base Interval IntervalProofs NodeInfo Table TableProofs Nonce Replay Core Conn PeerCrypto Node NodeProofs ScheduleProofs NextHopProofs TickPeersProofs FloodProofs AnnounceProofs RedialProofs.

(* whenever a node schedules its next announcement the delay is at most one second or strictly shorter than every timeout its peers advertised *)
Theorem C15_interval_safe : forall upd advertised, advertised <> [] ->
  let i := announce_interval upd advertised in
  i <= 1 \/ (forall x, In x advertised -> i < x).
Proof. exact interval_safe. Qed.

(* node level: the announcement step of housekeeping (C15_housekeep_expires_first shows where it sits) sets the next announcement to now + that interval, computed from the timeouts its current peers advertised *)
Theorem C15_node_schedule_safe : forall now n3,
  let '(m, fx) := broadcast n3 MESSAGE_TYPE_NODE_INFO (ni_encode (create_node_info n3)) in
  let advertised := map (fun e => p_peer_timeout (snd e)) (n_peers n3) in
  let iv := announce_interval (update_freq (c_peer_timeout (n_cfg m)) (c_keepalive (n_cfg m)))
                              (map (fun e => p_peer_timeout (snd e)) (n_peers m)) in
  n_next_peers (with_sched m (now + Z.of_N iv)%Z (n_next_own_reset m) (n_reconnect m)) = (now + Z.of_N iv)%Z /\
  (advertised <> [] -> iv <= 1 \/ forall x, In x advertised -> iv < x).
Proof. exact announcement_schedule_safe. Qed.

(* EVERY REACHABLE STATE ("healthy peers never time out" needs the announcements to go out): whenever an announcement is due, the housekeeping tick emits it to every node that is still a peer after the expiry and crypto phases of that very tick, once each - whether or not a later housekeeping step fails (c_hkfault): the announcement sits before the steps that can fail (hk3 = the node after expiry, table sweep and crypto housekeeping) *)
Theorem C15_reachable_announcement_reaches_every_peer : forall salts c t0 evs now,
  let n := nrun salts (node_new c t0) evs in
  (n_next_peers n <= now)%Z ->
  let n3 := hk3 salts now n in
  let ann := snd (broadcast n3 MESSAGE_TYPE_NODE_INFO (ni_encode (create_node_info n3))) in
  (exists pre post, snd (housekeep salts now n) = pre ++ ann ++ post) /\
  map dst_of ann = map (fun e => Some (fst e)) (n_peers n3).
Proof. exact reachable_announcement_reaches_every_peer. Qed.

(* with no peers the own update frequency, capped at 90 s *)
Theorem C15_interval_no_peers : forall upd, announce_interval upd [] = N.min upd 90.
Proof. exact interval_no_peers. Qed.

(* the default keepalive is at least 1 and below the peer timeout *)
Theorem C15_keepalive_default : forall pt, 1 <= get_keepalive pt None /\ (2 <= pt -> get_keepalive pt None < pt).
Proof. exact keepalive_default. Qed.

(* a peer whose timeout passed is removed at the next housekeeping tick together with all its claims and learned entries *)
Theorem C15_expired_removed : forall salts now n addr pd, (0 < now)%Z ->
  aget (n_peers n) addr = Some pd -> (p_timeout pd < now)%Z ->
  aget (n_peers (fst (expire_phase salts now n))) addr = None /\
  (forall c, In c (claims (n_table (fst (expire_phase salts now n)))) -> c_peer c <> addr) /\
  (forall e, In e (cache (n_table (fst (expire_phase salts now n)))) -> e_peer e <> addr).
Proof. exact expired_peers_removed. Qed.

(* housekeeping begins with that expiry phase (and re-dials the address) *)
Theorem C15_housekeep_expires_first : forall salts now n,
  fst (housekeep salts now n) =
  fst (let '(n1, fx1) := expire_phase salts now n in
       let n2 := upd n1 (n_peers n1) (n_pending n1) (n_own n1) (table_housekeep (n_table n1) now) in
       let '(n3, fx3) := crypto_housekeep salts now n2 in
       let '(n4, fx4) :=
         if (n_next_peers n3 <=? now)%Z then
           let '(m, fx) := broadcast n3 MESSAGE_TYPE_NODE_INFO (ni_encode (create_node_info n3)) in
           let iv := announce_interval (update_freq (c_peer_timeout (n_cfg m)) (c_keepalive (n_cfg m)))
                                       (map (fun e => p_peer_timeout (snd e)) (n_peers m)) in
           (with_sched m (now + Z.of_N iv)%Z (n_next_own_reset m) (n_reconnect m), fx)
         else (n3, []) in
       let '(n5, fx5) := reconnect_step salts now n4 in
       let n6 := if negb (c_hkfault (n_cfg n5)) && (n_next_own_reset n5 <=? now)%Z
                 then with_sched (upd n5 (n_peers n5) (n_pending n5) (c_advertise (n_cfg n5) ++ [c_addr (n_cfg n5)]) (n_table n5)) (n_next_peers n5) (now + 300)%Z (n_reconnect n5)
                 else n5 in
       (n6, fx1 ++ fx3 ++ fx4 ++ fx5)).
Proof. exact housekeep_starts_with_expire. Qed.

(* ... and RE-DIALLED: the same housekeeping tick sends a fresh stage-1 handshake message (no payload) to the address of every peer it removes, whatever that peer advertised and whatever else the node holds - unless the address is one of the node's own or a handshake with it is already pending (the two cases in which connect_sock does nothing) *)
Theorem C15_expired_redialled : forall salts now n addr pd,
  aget (n_peers n) addr = Some pd -> (p_timeout pd < now)%Z ->
  memN addr (n_own n) = false -> ahas (n_pending n) addr = false ->
  exists e, In e (snd (housekeep salts now n)) /\ is_ping_to addr e.
Proof. exact housekeep_redials_expired. Qed.

(* reconnect back-off: the delay stays within 1..3600 s, tries within 0..10, the next attempt lies in the future and at most one hour ahead *)
Theorem C15_backoff_bounds : forall now e, backoff_ok e ->
  backoff_ok (backoff_step now e) /\
  ((bnext e <= now)%Z -> (now < bnext (backoff_step now e) <= now + 3600)%Z).
Proof. exact backoff_step_ok. Qed.

Theorem C15_backoff_init : forall now, backoff_ok (backoff0 now).
Proof. exact backoff0_ok. Qed.

(* and after any number of failed attempts: configured peers are retried indefinitely *)
Theorem C15_backoff_forever : forall times e, backoff_ok e -> backoff_ok (backoff_run e times).
Proof. exact backoff_run_ok. Qed.

(* non-vacuity *)
Example C15_ex_redial_premises : exists pd, aget (n_peers ex_b) 1001 = Some pd /\ (p_timeout pd < 1000)%Z /\
  memN 1001 (n_own ex_b) = false /\ ahas (n_pending ex_b) 1001 = false.
Proof. exact ex_redial. Qed.

Example C15_ex_announcement_due : (n_next_peers ex_b <= 5)%Z /\
  map dst_of (snd (broadcast (hk3 salts 5 ex_b) MESSAGE_TYPE_NODE_INFO (ni_encode (create_node_info (hk3 salts 5 ex_b))))) = [Some 1001].
Proof. exact ex_announcement. Qed.

Print Assumptions C15_interval_safe.
Print Assumptions C15_node_schedule_safe.
Print Assumptions C15_reachable_announcement_reaches_every_peer.
Print Assumptions C15_interval_no_peers.
Print Assumptions C15_keepalive_default.
Print Assumptions C15_expired_removed.
Print Assumptions C15_housekeep_expires_first.
Print Assumptions C15_expired_redialled.
Print Assumptions C15_backoff_bounds.
Print Assumptions C15_backoff_init.
Print Assumptions C15_backoff_forever.
