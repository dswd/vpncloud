(* C13 — Switch learning is per VLAN and expires; hub and router learn nothing.
   Pinned statements only.  Addresses are the 8-byte (VLAN, MAC) keys of Dissect.v (after the fix of
   F5 a priority tag, VLAN 0, yields the same key as no tag: C19). *)
From VpnModel Require Import Base Dissect DissectProofs Core Conn PeerCrypto Table TableProofs Node NodeProofs.

(* learning mode: the frame's source key now points to the sending peer with the switch timeout, every other key and all claims unchanged; hub/router mode: table untouched *)
Theorem C13_learns : forall salts now n src body reply s d,
  parse_frame (n_cfg n) body = Ok (s, d) ->
  let n' := fst (handle_result salts now n src (MMessage MESSAGE_TYPE_DATA body) reply) in
  if c_learning (n_cfg n)
  then cache_get (cache (n_table n')) s = Some {| e_addr := s; e_peer := src; e_timeout := (now + cache_timeout (n_table n))%Z |} /\
       (forall b, b <> s -> cache_get (cache (n_table n')) b = cache_get (cache (n_table n)) b) /\
       claims (n_table n') = claims (n_table n)
  else n_table n' = n_table n.
Proof. exact data_learns. Qed.

(* table level: cache() replaces the entry of exactly that key *)
Theorem C13_learn_exact : forall t now a p,
  cache_get (cache (table_cache t now a p)) a = Some {| e_addr := a; e_peer := p; e_timeout := (now + cache_timeout t)%Z |} /\
  (forall b, b <> a -> cache_get (cache (table_cache t now a p)) b = cache_get (cache t) b) /\
  claims (table_cache t now a p) = claims t.
Proof. exact learn_exact. Qed.

(* a learned key resolves to its peer *)
Theorem C13_lookup_learned : forall t now a e, cache_get (cache t) a = Some e ->
  table_lookup t now a = (Some (e_peer e), t).
Proof. exact lookup_cached. Qed.

(* housekeeping removes exactly the entries whose timeout passed *)
Theorem C13_expires : forall t now,
  (forall c, In c (claims (table_housekeep t now)) <-> (In c (claims t) /\ (now <= c_timeout c)%Z)) /\
  (forall e, In e (cache (table_housekeep t now)) <-> (In e (cache t) /\ (now <= e_timeout e)%Z)).
Proof. exact housekeep_exact. Qed.

(* a disconnecting peer takes its learned entries with it *)
Theorem C13_disconnect : forall t now peer, (0 < now)%Z ->
  let t' := table_remove_claims t now peer in
  (forall c, In c (claims t') -> c_peer c <> peer) /\
  (forall e, In e (cache t') -> e_peer e <> peer) /\
  (forall c, c_peer c <> peer -> (In c (claims t') <-> (In c (claims t) /\ (now <= c_timeout c)%Z))) /\
  (forall e, e_peer e <> peer -> (In e (cache t') <-> (In e (cache t) /\ (now <= e_timeout e)%Z))).
Proof. exact remove_claims_clean. Qed.

(* the key contains the 12-bit VLAN id: the same MAC in another VLAN is another key *)
Theorem C13_per_vlan : forall dst src a b rest,
  length dst = 6%nat -> length src = 6%nat -> a < 256 -> b < 256 ->
  frame_parse (dst ++ src ++ 129 :: 0 :: a :: b :: rest) =
    if vid a b =? 0 then Ok (src, dst)
    else Ok (be_enc 2 (vid a b) ++ src, be_enc 2 (vid a b) ++ dst).
Proof. exact (fun dst src a b rest Hd Hs _ => frame_tagged dst src a b rest Hd Hs). Qed.

(* untagged frames have VLAN 0 *)
Theorem C13_untagged : forall dst src e0 e1 rest,
  length dst = 6%nat -> length src = 6%nat -> (e0, e1) <> (129, 0) ->
  frame_parse (dst ++ src ++ e0 :: e1 :: rest) = Ok (src, dst).
Proof. exact frame_untagged. Qed.

(* unknown destinations: one datagram per peer in flooding modes (never an interface write) *)
Theorem C13_unknown_floods : forall salts now n frame,
  Forall (fun e => is_send e = true) (snd (handle_iface salts now n frame)).
Proof. exact iface_read_effects. Qed.

Print Assumptions C13_learns.
Print Assumptions C13_learn_exact.
Print Assumptions C13_lookup_learned.
Print Assumptions C13_expires.
Print Assumptions C13_disconnect.
Print Assumptions C13_per_vlan.
Print Assumptions C13_untagged.
Print Assumptions C13_unknown_floods.
