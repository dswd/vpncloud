(* C03 — Replay window: a captured datagram dies within two housekeeping ticks.
   Pinned statements only.  Counters are >= 1 (a sender increments before its first seal; the
   all-zero nonce is never produced), which is the `pos_hist` premise. *)
From VpnModel Require Import Base Nonce Replay ReplayProofs Core CoreProofs Conn PeerCrypto NodeInfo Table Node TickProofs NextHopProofs TickPeersProofs PcInvariant CoreWfProofs.

(* T1: for every history of deliveries and ticks the three-register window accepts exactly the
   deliveries the history-only reference accepts: counter greater than every counter accepted
   before the tick preceding the most recent tick (ghost sets g2/g1/g0 of Replay.v). *)
Theorem C03_accept_iff : forall h, pos_hist h -> fst (run win0 h) = fst (ref_run ghost0 h).
Proof. exact accept_iff_history. Qed.

(* the same from every state related to a history summary, with the relation preserved: this is the
   induction that T1 is an instance of *)
Theorem C03_invariant : forall h w g, Inv w g -> pos_hist h ->
  fst (run w h) = fst (ref_run g h) /\ Inv (snd (run w h)) (snd (ref_run g h)).
Proof. exact run_agrees. Qed.

(* T2: something at least as new accepted, then two ticks: rejected from then on, whatever follows *)
Theorem C03_dies_in_two_ticks : forall h m n rest,
  pos_hist h -> 1 <= m -> n <= m -> accepts (after h) m = true -> pos_hist rest ->
  accepts (snd (run (after (h ++ [Deliver m; Tick; Tick])) rest)) n = false.
Proof. exact (fun h m n rest Hp Hm Hnm Hacc _ => dies_in_two_ticks h m n rest Hp Hm Hnm Hacc). Qed.

(* T3: newer than everything seen is always accepted *)
Theorem C03_newest_always : forall h n, pos_hist h -> seen (after h) < n -> accepts (after h) n = true.
Proof. exact newest_accepted. Qed.

(* lift to CryptoCore: a datagram opens iff key id in range, genuine seal under the slot's key and the
   reconstructed nonce, and the slot's window accepts the counter *)
Theorem C03_core_decrypt_iff : forall c keyid ctr7 x j p, wf_core c ->
  snd (core_decrypt c (DG keyid ctr7 x j)) = Ok p <->
  (keyid < 4 /\ x = Seal (s_key (get_slot c keyid)) (nonce_rebuild (half c) ctr7) p /\
   accepts (s_win (get_slot c keyid)) (be_val (nonce_rebuild (half c) ctr7)) = true).
Proof. exact (fun c keyid ctr7 x j p _ => decrypt_ok_iff c keyid ctr7 x j p). Qed.

Theorem C03_core_window_moves : forall c keyid ctr7 x j p, wf_core c ->
  snd (core_decrypt c (DG keyid ctr7 x j)) = Ok p ->
  let c' := fst (core_decrypt c (DG keyid ctr7 x j)) in
  s_win (get_slot c' keyid) = snd (deliver (s_win (get_slot c keyid)) (be_val (nonce_rebuild (half c) ctr7))) /\
  (forall i, i <> keyid -> i < 4 -> get_slot c' i = get_slot c i) /\
  s_key (get_slot c' keyid) = s_key (get_slot c keyid) /\ s_send (get_slot c' keyid) = s_send (get_slot c keyid) /\
  current c' = current c /\ half c' = half c.
Proof. exact decrypt_ok_window. Qed.

Theorem C03_core_reject_unchanged : forall c d, is_ok (snd (core_decrypt c d)) = false -> fst (core_decrypt c d) = c.
Proof. exact decrypt_fail_unchanged. Qed.

(* every_second ticks every slot exactly once; rotate_key starts a fresh window *)
Theorem C03_core_tick : forall c i,
  get_slot (core_tick c) i =
  (if (N.to_nat i <? length (slots c))%nat
   then {| s_key := s_key (get_slot c i); s_send := s_send (get_slot c i); s_win := tick (s_win (get_slot c i)) |}
   else get_slot c i).
Proof. exact tick_all_slots. Qed.

Theorem C03_core_rotate_fresh : forall c k id use r, wf_core c ->
  get_slot (core_rotate c k id use r) (id mod 4) = new_slot k (half c) r /\
  (forall i, i <> id mod 4 -> get_slot (core_rotate c k id use r) i = get_slot c i) /\
  current (core_rotate c k id use r) = (if use then id mod 4 else current c).
Proof. exact rotate_fresh_window. Qed.

(* T5 (connection object): every housekeeping second PeerCrypto::every_second moves the window of every key slot of a connection that has
   a crypto core - whatever the handshake object or the key rotation do in that second (a slot may instead be re-keyed: fresh window) *)
Theorem C03_every_second_ticks_windows : forall p c, pc_core p = Some c -> wf_core c ->
  exists c', pc_core (fst (fst (pc_every_second p))) = Some c' /\ wf_core c' /\
             forall i, i < 4 -> s_win (get_slot c' i) = tick (s_win (get_slot c i)) \/ s_win (get_slot c' i) = win0.
Proof. exact every_second_ticks_windows. Qed.

(* T6 (node): one housekeeping pass over the peers applies every_second exactly once to every peer and touches nothing else,
   in every state a node can reach (the peer map never lists an address twice) *)
Theorem C03_tick_peers_once : forall n, NoDup (map fst (n_peers n)) ->
  (forall a, aget (n_peers (fst (fst (tick_peers n)))) a = option_map tick_pd (aget (n_peers n) a)) /\
  n_pending (fst (fst (tick_peers n))) = n_pending n /\ n_table (fst (fst (tick_peers n))) = n_table n.
Proof. exact tick_peers_ticks_each_once. Qed.

Theorem C03_reachable_tick_peers_once : forall salts c t0 evs,
  let n := nrun salts (node_new c t0) evs in
  NoDup (map fst (n_peers n)) /\ NoDup (map fst (n_pending n)) /\
  forall a, aget (n_peers (fst (fst (tick_peers n)))) a = option_map tick_pd (aget (n_peers n) a).
Proof. exact reachable_tick_peers_once_full. Qed.

(* T7 (node, closing the chain): in EVERY reachable node state the crypto core of every connection is well-formed (four key slots,
   sending slot in range: the premise of the window theorems above), and one housekeeping pass over the peers moves the replay
   window of every key slot of every encrypted peer connection - or re-keys the slot, which starts a fresh window *)
Theorem C03_reachable_cores_wf : forall c salts t0 evs,
  let n := nrun salts (node_new c t0) evs in
  (forall a pd co, aget (n_peers n) a = Some pd -> pc_core (p_crypto pd) = Some co -> wf_core co) /\
  (forall a pc co, aget (n_pending n) a = Some pc -> pc_core pc = Some co -> wf_core co).
Proof. exact reachable_cores_wf. Qed.

Theorem C03_reachable_housekeeping_moves_every_window : forall c salts t0 evs a pd co,
  let n := nrun salts (node_new c t0) evs in
  aget (n_peers n) a = Some pd -> pc_core (p_crypto pd) = Some co ->
  exists pd' co', aget (n_peers (fst (fst (tick_peers n)))) a = Some pd' /\ pc_core (p_crypto pd') = Some co' /\ wf_core co' /\
    forall i, i < 4 -> s_win (get_slot co' i) = tick (s_win (get_slot co i)) \/ s_win (get_slot co' i) = win0.
Proof. exact reachable_housekeeping_moves_every_window. Qed.

(* non-vacuity *)
Example C03_ex_history :
  fst (run win0 [Deliver 5; Deliver 3; Tick; Deliver 4; Tick; Deliver 4; Deliver 6; Tick; Deliver 5; Deliver 7])
  = [true; true; true; false; true; false; true].
Proof. vm_compute. reflexivity. Qed.
Example C03_ex_pos : pos_hist [Deliver 5; Deliver 3; Tick; Deliver 4].
Proof. repeat constructor; discriminate. Qed.

Example C03_ex_node_tick : map fst (n_peers (fst (fst (tick_peers ex_b)))) = [1001].
Proof. exact ex_tick_peers. Qed.

Example C03_ex_peer_has_core : exists pd co, aget (n_peers ex_b) 1001 = Some pd /\ pc_core (p_crypto pd) = Some co.
Proof. exact ex_peer_has_core. Qed.

Print Assumptions C03_accept_iff.
Print Assumptions C03_invariant.
Print Assumptions C03_dies_in_two_ticks.
Print Assumptions C03_newest_always.
Print Assumptions C03_core_decrypt_iff.
Print Assumptions C03_core_window_moves.
Print Assumptions C03_core_reject_unchanged.
Print Assumptions C03_core_tick.
Print Assumptions C03_core_rotate_fresh.
Print Assumptions C03_every_second_ticks_windows.
Print Assumptions C03_tick_peers_once.
Print Assumptions C03_reachable_tick_peers_once.
Print Assumptions C03_reachable_cores_wf.
Print Assumptions C03_reachable_housekeeping_moves_every_window.
