(* C18 — Generated and password-derived keys are always usable and deterministic.
   Pinned statements only.  PBKDF2 (kdf) and Ed25519 public-key derivation (pk_of) are oracle
   functions; the only fact assumed about them is that pk_of returns 32 bytes (values below 256). *)
From VpnModel Require Import Base Base62 Base62Proofs Keys KeysProofs.

(* T1: every 32-byte key printed by key generation is accepted when configured and denotes the same
   bytes — including keys with leading zero bytes (finding F10, repaired) *)
Theorem C18_accept_generated : forall key, all_bytes key -> length key = 32%nat ->
  exists text, to_base62 key = Ok text /\ parse_key32 text = Ok key.
Proof. exact accept_generated. Qed.

Theorem C18_parse_total : forall text, is_panic (parse_key32 text) = false.
Proof. exact parse_key32_total. Qed.

Theorem C18_parse_len : forall text k, parse_key32 text = Ok k -> length k = 32%nat.
Proof. exact parse_key32_len. Qed.

(* T2: password -> key pair is a function; the printed pair, configured as private (+ public, +
   trusted) key, selects exactly that pair; a private key alone yields its matching public key *)
Theorem C18_password_keys : forall kdf pk_of pw,
  crypto_new kdf pk_of {| cfg_password := Some pw; cfg_private := None; cfg_public := None; cfg_trusted := [] |}
  = Ok (kdf pw, pk_of (kdf pw), [pk_of (kdf pw)]).
Proof. exact password_keys. Qed.

Theorem C18_printed_pair_accepted : forall (kdf pk_of : bytes -> bytes),
  (forall s, length (pk_of s) = 32%nat /\ all_bytes (pk_of s)) ->
  forall seed, all_bytes seed -> length seed = 32%nat ->
  exists tpriv tpub,
    print_keypair pk_of seed = (Ok tpriv, Ok tpub) /\
    crypto_new kdf pk_of {| cfg_password := None; cfg_private := Some tpriv; cfg_public := Some tpub; cfg_trusted := [tpub] |}
      = Ok (seed, pk_of seed, [pk_of seed]) /\
    crypto_new kdf pk_of {| cfg_password := None; cfg_private := Some tpriv; cfg_public := None; cfg_trusted := [] |}
      = Ok (seed, pk_of seed, [pk_of seed]).
Proof. exact printed_pair_accepted. Qed.

(* T3: password-only nodes trust each other iff their derived public keys are equal *)
Theorem C18_password_trust : forall kdf pk_of p1 p2 s1 k1 t1 s2 k2 t2,
  crypto_new kdf pk_of {| cfg_password := Some p1; cfg_private := None; cfg_public := None; cfg_trusted := [] |} = Ok (s1, k1, t1) ->
  crypto_new kdf pk_of {| cfg_password := Some p2; cfg_private := None; cfg_public := None; cfg_trusted := [] |} = Ok (s2, k2, t2) ->
  (In k2 t1 <-> k1 = k2) /\ (In k1 t2 <-> k1 = k2).
Proof. exact password_trust. Qed.

Example C18_ex_leading_zero :
  let key := 0 :: 0 :: map N.of_nat (seq 1 30) in
  match to_base62 key with Ok t => parse_key32 t = Ok key | _ => False end.
Proof.
  intro key. destruct (C18_accept_generated key) as (t & Ht & Hp); [repeat constructor|reflexivity|].
  rewrite Ht. exact Hp.
Qed.

Print Assumptions C18_accept_generated.
Print Assumptions C18_parse_total.
Print Assumptions C18_parse_len.
Print Assumptions C18_password_keys.
Print Assumptions C18_printed_pair_accepted.
Print Assumptions C18_password_trust.
