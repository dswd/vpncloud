(* C16 — Wire codecs round-trip, skip unknown parts, and are total.
   Pinned statements only.  Totality: every decoder of the model is a Gallina function (structural
   recursion or explicit fuel bounded by the input length), so it ends with a value or an error on
   every byte string by construction; that the model decoders ARE the real ones is the executed
   correspondence on arbitrary bytes (py/props/c16.py: round-trips, mutated encodings, random bytes,
   TLV lengths up to 0xffff).
   PARTIAL: that the REAL decoders never panic, hang or allocate beyond the datagram is decided by the
   correspondence run only (the model decoders are total by construction). *)
From VpnModel Require Import Base RangeMatch Conn NodeInfo NodeInfoProofs InitMsg CodecProofs DissectProofs.

(* node information decodes to exactly what was encoded up to the normalisation (at most seven addresses per family and entry, IPv6 before IPv4), whatever follows the end marker; ni_wf = what an honest encoder is given (16-byte ids, 6/18-byte addresses, claims of at most 16 address bytes, parts below 64 KiB) *)
Theorem C16_nodeinfo_roundtrip : forall x tail, ni_wf x -> ni_decode (ni_encode x ++ tail) = Ok (ni_normalise x).
Proof. exact nodeinfo_roundtrip. Qed.

(* a node-information part with an unknown tag is skipped *)
Theorem C16_nodeinfo_unknown_skipped : forall f acc tag body r, 5 < tag -> lenN body < 65536 ->
  dec_parts (S f) acc (enc_part tag body ++ r) = dec_parts f acc r.
Proof. exact nodeinfo_unknown_skipped. Qed.

(* the node-information decoder has no panic result for any byte string *)
Theorem C16_nodeinfo_total : forall d, is_panic (ni_decode d) = false.
Proof. exact nodeinfo_decode_total. Qed.

(* rotation messages decode to what was encoded, whatever follows *)
Theorem C16_rotation_roundtrip : forall m tail, rot_wf m -> rot_decode (rot_encode m ++ tail) = Some m.
Proof. exact rot_roundtrip. Qed.

(* handshake messages (every stage, optional parts) decode to what was encoded *)
Theorem C16_init_roundtrip : forall lookup verify pfx p sig tail key,
  length pfx = 8%nat -> parsed_ok p -> (length sig < 256)%nat ->
  lookup (firstn 4 pfx) (firstn 4 (skipn 4 pfx)) = Some key ->
  verify key (pfx ++ write_body p) sig = true ->
  read_from lookup verify (pfx ++ write_body p ++ [lenN sig] ++ sig ++ tail) = Ok (p, key).
Proof. exact (fun lookup verify pfx p sig tail key Hpfx Hok _ => initmsg_roundtrip lookup verify pfx p sig tail key Hpfx Hok). Qed.

(* a handshake part with an unknown tag is skipped *)
Theorem C16_init_unknown_skipped : forall fu tag body r f, (5 < tag) -> lenN body < 65536 ->
  parse_parts (S fu) (enc_tlv tag body ++ r) f = parse_parts fu r f.
Proof. exact pp_unknown. Qed.

Example C16_ex_wf : exists x, ni_wf x /\ ni_peers x <> [] /\ ni_claims x <> [].
Proof. eexists. split; [exact ni_wf_example|]. split; discriminate. Qed.

Print Assumptions C16_nodeinfo_roundtrip.
Print Assumptions C16_nodeinfo_unknown_skipped.
Print Assumptions C16_nodeinfo_total.
Print Assumptions C16_rotation_roundtrip.
Print Assumptions C16_init_roundtrip.
Print Assumptions C16_init_unknown_skipped.
