(* C12 — Routes track peers: exactly the announced claims, nothing for the disconnected.
   Table half (TableProofs.v) and node half (RoutesProofs.v: every peer-removal path removes the claims; ClaimsExactProofs.v,
   NextHopProofs.v). *)
From VpnModel Require Import Base RangeMatch Table TableProofs Nonce Replay Core Conn PeerCrypto NodeInfo Node NodeProofs RoutesProofs NextHopProofs ClaimsExactProofs.

(* T1: after set_claims the ranges attributed to the peer are exactly the announced ones, all with a
   fresh expiry; live entries of other peers untouched; if any claim of the peer was dropped all its
   cached decisions are gone, and cached decisions of other peers only ever disappear *)
Theorem C12_set_claims_exact : forall t now peer new,
  (0 < now)%Z -> (0 <= claim_timeout t)%Z ->
  let t' := table_set_claims t now peer new in
  (forall r, (exists c, In c (claims t') /\ c_peer c = peer /\ crange c = r) <-> In r new) /\
  (forall c, In c (claims t') -> c_peer c = peer -> c_timeout c = (now + claim_timeout t)%Z) /\
  (forall c, c_peer c <> peer -> (In c (claims t') <-> (In c (claims t) /\ (now <= c_timeout c)%Z))) /\
  ((exists e, In e (claims t) /\ c_peer e = peer /\ ~ In (crange e) new) ->
     forall e, In e (cache t') -> e_peer e <> peer) /\
  (forall e, In e (cache t') -> e_peer e <> peer -> In e (cache t)) /\
  cache_timeout t' = cache_timeout t /\ claim_timeout t' = claim_timeout t.
Proof. exact set_claims_exact. Qed.

(* T2: a claim not re-announced disappears at the first sweep after its expiry *)
Theorem C12_expire : forall t now,
  (forall c, In c (claims (table_housekeep t now)) <-> (In c (claims t) /\ (now <= c_timeout c)%Z)) /\
  (forall e, In e (cache (table_housekeep t now)) <-> (In e (cache t) /\ (now <= e_timeout e)%Z)).
Proof. exact housekeep_exact. Qed.

(* T3 (table half): removal leaves no claim and no cached/learned address pointing at the peer *)
Theorem C12_remove_clean : forall t now peer, (0 < now)%Z ->
  let t' := table_remove_claims t now peer in
  (forall c, In c (claims t') -> c_peer c <> peer) /\
  (forall e, In e (cache t') -> e_peer e <> peer) /\
  (forall c, c_peer c <> peer -> (In c (claims t') <-> (In c (claims t) /\ (now <= c_timeout c)%Z))) /\
  (forall e, e_peer e <> peer -> (In e (cache t') <-> (In e (cache t) /\ (now <= e_timeout e)%Z))).
Proof. exact remove_claims_clean. Qed.

(* T3 (node half): every path on which a node drops a peer drops the peer's routes in the same step.
   no_routes n a = a is not a peer, no claim and no cached/learned address points at a. *)
(* (a) the peer's timeout passed: housekeeping's expiry phase *)
Theorem C12_expired_peer_routes_removed : forall salts now n addr pd, (0 < now)%Z ->
  aget (n_peers n) addr = Some pd -> (p_timeout pd < now)%Z ->
  aget (n_peers (fst (expire_phase salts now n))) addr = None /\
  (forall c, In c (claims (n_table (fst (expire_phase salts now n)))) -> c_peer c <> addr) /\
  (forall e, In e (cache (n_table (fst (expire_phase salts now n)))) -> e_peer e <> addr).
Proof. exact expired_peers_removed. Qed.

(* (b) the peer sent CLOSE *)
Theorem C12_closed_peer_routes_removed : forall salts now n src body reply, (0 < now)%Z ->
  no_routes (fst (handle_result salts now n src (MMessage MESSAGE_TYPE_CLOSE body) reply)) src \/
  (aget (n_peers n) src = None /\ fst (handle_result salts now n src (MMessage MESSAGE_TYPE_CLOSE body) reply) = n).
Proof. exact close_removes_routes. Qed.

(* (c) the peer's connection object failed in the crypto housekeeping (after the fix of F4);
   crypto_housekeep ends with remove_failed on the failed addresses (C12_crypto_housekeep_shape) *)
Theorem C12_failed_peer_routes_removed : forall salts now del m fx addr, (0 < now)%Z ->
  In addr del -> ahas (n_peers m) addr = true ->
  no_routes (fst (remove_failed salts now del (m, fx))) addr.
Proof. exact failed_peer_routes_removed. Qed.

Theorem C12_crypto_housekeep_shape : forall salts now n,
  crypto_housekeep salts now n =
  let '(n1, fx1, del1) := tick_pending n in
  let '(n2, fx2, del2) := tick_peers n1 in
  remove_failed salts now del2
    (fold_left (fun m addr => upd m (n_peers m) (adel (n_pending m) addr) (n_own m) (n_table m)) del1 n2, fx1 ++ fx2).
Proof. exact crypto_housekeep_shape. Qed.


(* T1 at node level: whenever a node processes the node information of a connected peer - in a NODE_INFO message, or as the payload
   that completes a handshake - the claims attributed to that peer become exactly the announced ones with a fresh expiry, and other
   peers' live claims are untouched.
   claims_exactly t' t now addr announced :=
     (forall r, (exists c, In c (claims t') /\ c_peer c = addr /\ crange c = r) <-> In r announced) /\
     (forall c, In c (claims t') -> c_peer c = addr -> c_timeout c = now + claim_timeout t) /\
     (forall c, c_peer c <> addr -> (In c (claims t') <-> In c (claims t) /\ now <= c_timeout c)) *)
Theorem C12_node_info_message_sets_claims_exactly : forall salts now n src pd body info reply, (0 < now)%Z -> (0 <= claim_timeout (n_table n))%Z ->
  aget (n_peers n) src = Some pd -> ni_decode body = Ok info ->
  claims_exactly (n_table (fst (handle_result salts now n src (MMessage MESSAGE_TYPE_NODE_INFO body) reply))) (n_table n) now src (ni_claims info).
Proof. exact node_info_message_sets_claims_exactly. Qed.

Theorem C12_handshake_payload_sets_claims_exactly : forall salts now n src pc info, (0 < now)%Z -> (0 <= claim_timeout (n_table n))%Z ->
  aget (n_pending n) src = Some pc ->
  claims_exactly (n_table (fst (add_new_peer salts now n src info))) (n_table n) now src (ni_claims info).
Proof. exact handshake_payload_sets_claims_exactly. Qed.

(* T4 (last sentence of the property, as an invariant): in EVERY state a node can reach - any events (datagrams from any source,
   interface reads, housekeeping, dials) at any times > 0, any handshake salts - every claim and every cached / learned address of the
   table belongs to a current peer, and handshake objects still in the pending map hold no key material (which is why they cannot
   deliver data that would teach the table an address of a non-peer) *)
Theorem C12_reachable_routes_point_at_peers : forall salts c t0 evs, Forall (fun te => (0 < fst te)%Z) evs ->
  let n := nrun salts (node_new c t0) evs in
  (forall cl, In cl (claims (n_table n)) -> ahas (n_peers n) (c_peer cl) = true) /\
  (forall e, In e (cache (n_table n)) -> ahas (n_peers n) (e_peer e) = true) /\
  (forall a pc, aget (n_pending n) a = Some pc -> pc_plain pc = false /\ pc_core pc = None).
Proof. exact reachable_routes_point_at_peers. Qed.

(* one step preserves it (INV n = RT n /\ PI n: the two halves above) *)
Theorem C12_step_keeps_routes_at_peers : forall salts now n e, (0 < now)%Z -> INV n -> INV (fst (step salts now n e)).
Proof. exact step_inv. Qed.

(* hence: whatever next hop a lookup selects is a peer, and the interface path never meets "Sending to node that is not a peer" *)
Theorem C12_next_hop_is_peer : forall salts c t0 evs now dst p, Forall (fun te => (0 < fst te)%Z) evs ->
  fst (table_lookup (n_table (nrun salts (node_new c t0) evs)) now dst) = Some p ->
  ahas (n_peers (nrun salts (node_new c t0) evs)) p = true.
Proof. exact next_hop_is_peer. Qed.

Theorem C12_iface_never_selects_non_peer : forall salts c t0 evs now frame s dst p t', Forall (fun te => (0 < fst te)%Z) evs ->
  let n := nrun salts (node_new c t0) evs in
  parse_frame (n_cfg n) frame = Ok (s, dst) -> table_lookup (n_table n) now dst = (Some p, t') ->
  exists pd, aget (n_peers n) p = Some pd.
Proof. exact iface_never_selects_non_peer. Qed.


Example C12_ex_shrink :
  let t := table_set_claims (table_new 300 300) 5 1 [([10;0;0;0], 8); ([10;1;0;0], 16)] in
  map crange (claims (table_set_claims t 6 1 [([10;0;0;0], 8)])) = [([10;0;0;0], 8)].
Proof. exact set_claims_shrink. Qed.

(* a reachable state whose table does select a next hop (node B after A's ping and peng): the theorems above are not vacuous *)
Example C12_ex_reachable_selects : Forall (fun te => (0 < fst te)%Z) ex_evs /\
  fst (table_lookup (n_table (nrun salts (node_new cB 1) ex_evs)) 2 [10;0;1;9]) = Some 1001 /\
  ahas (n_peers (nrun salts (node_new cB 1) ex_evs)) 1001 = true.
Proof. exact ex_reachable_selects. Qed.

Print Assumptions C12_set_claims_exact.
Print Assumptions C12_expire.
Print Assumptions C12_remove_clean.
Print Assumptions C12_expired_peer_routes_removed.
Print Assumptions C12_closed_peer_routes_removed.
Print Assumptions C12_failed_peer_routes_removed.
Print Assumptions C12_crypto_housekeep_shape.
Print Assumptions C12_reachable_routes_point_at_peers.
Print Assumptions C12_step_keeps_routes_at_peers.
Print Assumptions C12_next_hop_is_peer.
Print Assumptions C12_iface_never_selects_non_peer.
Print Assumptions C12_node_info_message_sets_claims_exactly.
Print Assumptions C12_handshake_payload_sets_claims_exactly.
