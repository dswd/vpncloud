(* C17 — Beacons round-trip, are found inside arbitrary text, respect age and password.
   Pinned statements only.  SHA-512 is modelled bit-exact (Sha512.v), so no hash oracle is assumed;
   the statements hold for every key (password). *)
From VpnModel Require Import Base Base62 Base62Proofs Sha512 Beacon BeaconProofs.

(* T1: base 62 text of a byte string decodes to the string without its leading zero bytes; the
   encoder never hits its assert / index panic sites *)
Theorem C17_base62_roundtrip : forall data, all_bytes data ->
  exists s, to_base62 data = Ok s /\ from_base62 s = Ok (strip0 data).
Proof. exact base62_roundtrip. Qed.

Theorem C17_base62_value : forall data, all_bytes data ->
  exists ds, to_base62_digits data = Ok ds /\ canon 62 (rev ds) /\ lval 62 (rev ds) = be_val data.
Proof. exact to_base62_spec. Qed.

(* T2: masking is an involution, encrypt/decrypt of the body round-trips with a verifying seed byte *)
Theorem C17_mask_involutive : forall key ty seed data, mask key ty seed (mask key ty seed data) = data.
Proof. exact mask_involutive. Qed.

Theorem C17_crypt_roundtrip : forall key data, decrypt_data key (encrypt_data key data) = (data, true).
Proof. exact crypt_roundtrip. Qed.

(* T3: for every key, hour stamp, peer list (IPv4 entries in order, then IPv6 entries in order) and
   every age limit that admits the stamp, the list is recovered exactly — unless the first six bytes
   of the masked body are all zero (base 62 drops leading zero bytes; the decoder, after the fix of
   F9a, restores up to five of them; the residual has probability 2^-48 per beacon) *)
Theorem C17_roundtrip : forall key hour now ttl peers,
  Forall peer_ok peers -> hour < 65536 -> (length (filter is_v4 peers) < 256)%nat ->
  (match ttl with None => True | Some t => (now + 65536 - hour) mod 65536 <= t \/ (hour + 65536 - now) mod 65536 <= t end) ->
  ~ f9a_residual key hour peers ->
  peerlist_decode key now ttl (peerlist_encode key hour peers) = filter is_v4 peers ++ filter (fun p => negb (is_v4 p)) peers.
Proof. exact peerlist_roundtrip. Qed.

(* T4: embedded in text: separators vanish (sanitize distributes over ++ and is the identity on
   alphanumerics), and where the scanner's two `find` calls hit, the body between them is decoded *)
Theorem C17_sanitize_app : forall a b, sanitize (a ++ b) = sanitize a ++ sanitize b.
Proof. exact sanitize_app. Qed.
Theorem C17_sanitize_alnum : forall l, forallb is_alnum l = true -> sanitize l = l.
Proof. exact sanitize_alnum. Qed.
Theorem C17_embedded : forall fuel key now ttl bgn en data pos found body_len,
  find bgn (skipn pos data) = Some found ->
  find en (skipn (pos + found + length bgn) data) = Some body_len ->
  exists more,
    scan (S fuel) key now ttl bgn en data pos =
    peerlist_decode key now ttl (firstn body_len (skipn (pos + found + length bgn) data)) ++ more.
Proof. exact scan_embedded. Qed.

(* T5: age: a stamp is refused exactly when it is further than ttl away in both directions (mod 2^16);
   this is the plain decoder's first test, shown on the unmasked list *)
Theorem C17_plain_roundtrip : forall hour now ttl peers,
  Forall peer_ok peers -> hour < 65536 -> (length (filter is_v4 peers) < 256)%nat ->
  (match ttl with None => True | Some t => (now + 65536 - hour) mod 65536 <= t \/ (hour + 65536 - now) mod 65536 <= t end) ->
  plain_decode now ttl (peerlist_plain hour peers) = filter is_v4 peers ++ filter (fun p => negb (is_v4 p)) peers.
Proof. exact plain_roundtrip. Qed.

(* T6: no panic sites: sanitised text always parses as base 62 (the `expect`), and every slice the
   scanner takes is inside the text with start <= end (after the fix of F9b) *)
Theorem C17_sanitized_decodes : forall l, forallb is_alnum l = true -> is_ok (from_base62 l) = true.
Proof. exact sanitized_decodes. Qed.
Theorem C17_sanitize_is_alnum : forall l, forallb is_alnum (sanitize l) = true.
Proof. exact sanitize_is_alnum. Qed.
Theorem C17_slices_in_range : forall bgn en data pos found body_len,
  (pos <= length data)%nat ->
  find bgn (skipn pos data) = Some found ->
  find en (skipn (pos + found + length bgn) data) = Some body_len ->
  (pos + found + length bgn <= pos + found + length bgn + body_len)%nat /\
  (pos + found + length bgn + body_len + length en <= length data)%nat.
Proof. exact scan_slices_in_range. Qed.

(* non-vacuity: the in-tree test beacon *)
Example C17_ex_roundtrip :
  let key := [109;121;115;101;99;114;101;116;107;101;121] in
  decode key 2000 (Some 24) (encode key 2000 [[1;2;3;4;22;46]; [6;6;6;6;0;53]]) = [[1;2;3;4;22;46]; [6;6;6;6;0;53]].
Proof.
  (* encode and decode would each evaluate both markers (a hash and a 64-byte base-62 conversion apiece) *)
  intro key.
  assert (HB : marker key TYPE_BEGIN = [87; 115; 72; 73; 51]) by (vm_compute; reflexivity).
  assert (HE : marker key TYPE_END = [105; 107; 50; 50; 69]) by (vm_compute; reflexivity).
  unfold decode, encode. rewrite HB, HE. vm_compute. reflexivity.
Qed.

Print Assumptions C17_base62_roundtrip.
Print Assumptions C17_base62_value.
Print Assumptions C17_mask_involutive.
Print Assumptions C17_crypt_roundtrip.
Print Assumptions C17_roundtrip.
Print Assumptions C17_sanitize_app.
Print Assumptions C17_sanitize_alnum.
Print Assumptions C17_embedded.
Print Assumptions C17_plain_roundtrip.
Print Assumptions C17_sanitized_decodes.
Print Assumptions C17_sanitize_is_alnum.
Print Assumptions C17_slices_in_range.
