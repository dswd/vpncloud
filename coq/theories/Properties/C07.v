(* C07 — Key rotation never strands traffic and keeps keys fresh.  Pinned statements only.
   System: two ends (RotationState + CryptoCore each) and the set of all rotation messages ever sent;
   a schedule is any list of steps {cycle at A/B, deliver ANY message ever sent to A/B (so loss,
   duplication, reordering and delay are all schedules), window tick, payload sealing}. *)
From VpnModel Require Import Base Nonce Replay Core CoreProofs Conn PeerCrypto Rotation2 Rotation2Proofs.

(* T1: for every schedule, from the state right after any handshake: the agree_ephemeral unwrap is
   never hit, and at every instant the key each end currently seals with is held by its peer under
   that key id with identical key material *)
Theorem C07_send_key_held : forall k0 da db fa fb ha ops,
  let s := fst (rsys_run (rsys_init k0 da db fa fb ha) ops) in
  snd (rsys_run (rsys_init k0 da db fa fb ha) ops) = false /\
  send_key (ea s) = held_key (eb s) (ea s) /\ send_key (eb s) = held_key (ea s) (eb s).
Proof. exact send_key_held. Qed.

(* the inductive invariant behind T1 *)
Theorem C07_invariant_step : forall s o, Inv s -> snd (rsys_step s o) = false /\ Inv (fst (rsys_step s o)).
Proof. exact inv_step. Qed.

Theorem C07_invariant_init : forall k0 da db fa fb ha, Inv (rsys_init k0 da db fa fb ha).
Proof. exact inv_init. Qed.

(* hence fresh payload is decryptable: a datagram sealed under the send key opens at the peer as soon
   as the peer's window admits the counter (Core.v's decrypt characterisation) *)
Theorem C07_fresh_payload_opens : forall c keyid ctr7 x j p, wf_core c ->
  snd (core_decrypt c (DG keyid ctr7 x j)) = Ok p <->
  (keyid < 4 /\ x = Seal (s_key (get_slot c keyid)) (nonce_rebuild (half c) ctr7) p /\
   accepts (s_win (get_slot c keyid)) (be_val (nonce_rebuild (half c) ctr7)) = true).
Proof. exact (fun c keyid ctr7 x j p _ => decrypt_ok_iff c keyid ctr7 x j p). Qed.

(* T2: duplicates and stale messages are ignored by the end that is ahead *)
Theorem C07_duplicates_ignored : forall n seen S R toS toR m, Shape n seen S R toS toR -> In m toS ->
  rend_deliver S m = Ok S.
Proof. exact duplicate_harmless_S. Qed.

(* T3: a lost message only postpones: the sender's cycle sets a flag, the next one re-sends the same
   message; the shape (hence T1) is kept *)
Theorem C07_loss_postpones : forall n seen S R toS toR, Shape n seen S R toS toR ->
  Shape n seen (fst (rend_cycle S)) R toS (app_opt toR (snd (rend_cycle S))).
Proof. exact S_cycle. Qed.

(* T4: while messages get through each cycle of the end whose turn it is advances the key id by one
   and the other end seals with it on arrival *)
Theorem C07_progress : forall n S R toS toR, Shape n true S R toS toR ->
  exists m R' S', rend_cycle R = (R', Some m) /\ rm_id m = n + 1 /\
    rend_deliver S m = Ok S' /\ Shape (n + 1) true R' S' toR (toS ++ [m]) /\
    current (e_core S') = (n + 1) mod 4.
Proof. exact progress. Qed.

(* T5: a cycle happens exactly when the per-second counter reaches the rotation interval (120) *)
Theorem C07_counter : forall p rs,
  pc_init p = None -> pc_rot p = Some rs ->
  let p' := fst (fst (pc_every_second p)) in
  (pc_counter p + 1 <? ROTATE_INTERVAL = true ->
     pc_rot p' = Some rs /\ pc_counter p' = pc_counter p + 1 /\ snd (pc_every_second p) = None) /\
  (pc_counter p + 1 <? ROTATE_INTERVAL = false ->
     pc_counter p' = 0 /\ pc_rot p' = Some (fst (fst (fst (rot_cycle rs (pc_fresh p)))))).
Proof. exact counter_cycles. Qed.

(* non-vacuity: a concrete schedule with loss, duplicates and stale deliveries *)
Example C07_ex_schedule :
  let s := fst (rsys_run (rsys_init 7 100 101 1000 2000 true)
                 [RDeliverB 0; RCycleB; RCycleA; RDeliverA 0; RDeliverA 0; RCycleA; RCycleA; RDeliverB 0; RDeliverB 1;
                  RCycleB; RDeliverA 1; RCycleA; RDeliverB 2; RSealA [1]; RTickB; RCycleB; RDeliverA 2]) in
  (current (e_core (ea s)), current (e_core (eb s)), send_key (ea s) =? held_key (eb s) (ea s), send_key (eb s) =? held_key (ea s) (eb s))
  = (2, 1, true, true).
Proof. vm_compute. reflexivity. Qed.

Print Assumptions C07_send_key_held.
Print Assumptions C07_invariant_step.
Print Assumptions C07_invariant_init.
Print Assumptions C07_fresh_payload_opens.
Print Assumptions C07_duplicates_ignored.
Print Assumptions C07_loss_postpones.
Print Assumptions C07_progress.
Print Assumptions C07_counter.
