(* C01: peers come only from handshake messages that verified under a trusted key. *)
From VpnModel Require Import Base Conn InitSteps PcSteps PeerCrypto NodeInfo Node Answerer NodeProofs.

Definition is_initialized (r : msg_result) : bool :=
  match r with MInitialized _ | MInitializedWithReply _ => true | _ => false end.

Lemma untrusted_rejected : forall ok s m, existsb (N.eqb (im_signer m)) (i_trusted s) = false ->
  handle_init ok s m = (s, Err 1, None).
Proof. intros ok s m H. rewrite handle_init_eq. unfold hi_gate. rewrite H. reflexivity. Qed.

Lemma success_needs_trust : forall ok s m p ini, snd (fst (handle_init ok s m)) = Ok (ISuccess p ini) ->
  existsb (N.eqb (im_signer m)) (i_trusted s) = true.
Proof.
  intros ok s m p ini H. destruct (existsb (N.eqb (im_signer m)) (i_trusted s)) eqn:E; [reflexivity|].
  rewrite untrusted_rejected in H by exact E. discriminate.
Qed.

Lemma pc_initialized : forall ok p w p' r rep, pc_handle ok p w = (p', Ok r, rep) -> is_initialized r = true ->
  exists i m i' pl ini reply, w = WInit m /\ pc_init p = Some i /\ handle_init ok i m = (i', Ok (ISuccess pl ini), reply) /\
                              pc_init p' = settle i'.
Proof.
  intros ok p w p' r rep. apply pc_handle_outcomes.
  - intros p0 r0 _ Q H Hr. injection H as _ -> _. destruct r; try discriminate Hr; destruct Q.
  - intros m i i' r0 reply _ _ _ _ H Hr. destruct r0; try discriminate H. injection H as _ <- _. discriminate Hr.
  - intros m i i' pl ini reply p0 r0 x -> Ei Eh P _ _ _ _ H _. injection H as -> _ _. exists i, m, i', pl, ini, reply. auto.
Qed.

Lemma pc_completion : forall ok p w p' r rep, pc_handle ok p w = (p', Ok r, rep) -> is_initialized r = true ->
  exists i m, w = WInit m /\ pc_init p = Some i /\ existsb (N.eqb (im_signer m)) (i_trusted i) = true /\ im_node m <> i_node i.
Proof.
  intros ok p w p' r rep H Hr. destruct (pc_initialized ok p w p' r rep H Hr) as (i & m & i' & pl & ini & reply & Hw & Ei & Eh & _).
  exists i, m. split; [exact Hw|]. split; [exact Ei|]. apply (handle_init_success _ _ _ _ _ _ _ Eh).
Qed.

Lemma pc_initialized_needs_trust : forall ok p w p' r rep, pc_handle ok p w = (p', Ok r, rep) -> is_initialized r = true ->
  exists i m, w = WInit m /\ pc_init p = Some i /\ existsb (N.eqb (im_signer m)) (i_trusted i) = true.
Proof. intros ok p w p' r rep H Hr. destruct (pc_completion _ _ _ _ _ _ H Hr) as (i & m & A & B & C & _). exists i, m. auto. Qed.

Lemma completion_wire : forall ok p w p' r rep, pc_handle ok p w = (p', Ok r, rep) -> is_initialized r = true -> is_init_wire w = true.
Proof. intros ok p w p' r rep H Hr. destruct (pc_initialized_needs_trust _ _ _ _ _ _ H Hr) as (i & m & -> & _). reflexivity. Qed.

Lemma completion_payload : forall ok p w p' r rep pl, pc_handle ok p w = (p', Ok r, rep) ->
  r = MInitialized pl \/ r = MInitializedWithReply pl -> ok pl = true.
Proof.
  intros ok p w p' r rep pl. apply pc_handle_outcomes.
  - intros p0 r0 _ Q H Hr. injection H as _ -> _. destruct Hr as [-> | ->]; destruct Q.
  - intros m i i' r0 reply _ _ _ _ H Hr. destruct r0; try discriminate H. injection H as _ <- _. destruct Hr; discriminate.
  - intros m i i' pl0 ini reply p0 r0 x _ _ Eh _ _ _ Hr0 _ H Hr. injection H as _ -> _.
    assert (pl0 = pl) as -> by (destruct Hr0 as [E|E], Hr as [-> | ->]; congruence).
    exact (proj1 (handle_init_success _ _ _ _ _ _ _ Eh)).
Qed.

Lemma ahas_aset : forall (A:Type) (l : list (N * A)) k v a, ahas (aset l k v) a = (a =? k) || ahas l a.
Proof.
  intros A l k v a. unfold ahas. destruct (a =? k) eqn:E.
  - apply N.eqb_eq in E. subst. rewrite aget_aset_same. reflexivity.
  - apply N.eqb_neq in E. rewrite aget_aset_other by congruence. reflexivity.
Qed.

Lemma ahas_aset_present : forall (A : Type) (l : list (N * A)) k v v' a, aget l k = Some v -> ahas (aset l k v') a = ahas l a.
Proof.
  intros A l k v v' a H. rewrite ahas_aset. destruct (a =? k) eqn:E; [|reflexivity]. apply N.eqb_eq in E. subst a. unfold ahas. rewrite H. reflexivity.
Qed.

Lemma ahas_adel : forall (A:Type) (l : list (N * A)) k a, ahas (adel l k) a = true -> ahas l a = true.
Proof.
  intros A l k a H. unfold ahas in *. destruct (N.eq_dec a k) as [->|Hne].
  - rewrite aget_adel_same in H. discriminate.
  - rewrite aget_adel_other in H by congruence. exact H.
Qed.

Lemma connect_to_peers_peers : forall salts ps n, n_peers (fst (connect_to_peers salts n ps)) = n_peers n.
Proof. intros salts ps n. exact (f_equal fst (connect_to_peers_keeps salts ps n)). Qed.

Lemma update_peer_info_has : forall salts now n addr info a,
  ahas (n_peers (fst (update_peer_info salts now n addr info))) a = ahas (n_peers n) a.
Proof.
  intros salts now n addr info a. unfold update_peer_info. destruct (aget (n_peers n) addr) as [pd|] eqn:E; [|reflexivity].
  pose proof (fun v => ahas_aset_present _ _ _ _ v a E) as Hk.
  destruct info as [i|]; [|cbn [fst upd n_peers]; apply Hk].
  rewrite connect_to_peers_peers. cbn [upd n_peers]. apply Hk.
Qed.

Lemma ahas_adel_other : forall (A:Type) (l : list (N * A)) k a, a <> k -> ahas (adel l k) a = ahas l a.
Proof. intros A l k a H. unfold ahas. rewrite aget_adel_other by congruence. reflexivity. Qed.

Lemma handle_result_peers : forall salts now n src r reply a,
  ahas (n_peers (fst (handle_result salts now n src r reply))) a = ahas (n_peers n) a \/
  a = src /\ (is_initialized r = true /\ ahas (n_peers (fst (handle_result salts now n src r reply))) a = true \/
              (exists body, r = MMessage MESSAGE_TYPE_CLOSE body) /\ ahas (n_peers (fst (handle_result salts now n src r reply))) a = false).
Proof.
  intros salts now n src r reply a.
  assert (New : forall info, let n' := fst (add_new_peer salts now n src info) in
            ahas (n_peers n') a = ahas (n_peers n) a \/ a = src /\ ahas (n_peers n') a = true).
  { intros info. cbv zeta. unfold add_new_peer. destruct (aget (n_pending n) src); [|left; reflexivity].
    rewrite update_peer_info_has. cbn [upd n_peers]. rewrite ahas_aset. destruct (N.eqb_spec a src) as [->|]; [right; split; reflexivity|left; reflexivity]. }
  destruct r as [ty body|p|p| |]; cbn [handle_result is_initialized]; try (left; reflexivity).
  - destruct (ty =? MESSAGE_TYPE_DATA).
    { left. destruct (parse_frame (n_cfg n) body) as [[s d]|e|s]; [|reflexivity..]. destruct (c_learning (n_cfg n)); reflexivity. }
    destruct (ty =? MESSAGE_TYPE_NODE_INFO).
    { left. destruct (ni_decode body); [apply update_peer_info_has|reflexivity..]. }
    destruct (ty =? MESSAGE_TYPE_KEEPALIVE); [left; apply update_peer_info_has|].
    destruct (N.eqb_spec ty MESSAGE_TYPE_CLOSE) as [->|]; [|left; reflexivity].
    cbn [fst]. unfold remove_peer. destruct (aget (n_peers n) src); [|left; reflexivity]. cbn [upd n_peers].
    destruct (N.eq_dec a src) as [->|Hne]; [right; unfold ahas; rewrite aget_adel_same; eauto|left; apply ahas_adel_other, Hne].
  - destruct (ni_decode p) as [info|e|s]; [|left; reflexivity..]. destruct (New info) as [K|[K1 K2]]; auto.
  - destruct (ni_decode p) as [info|e|s]; [|left; reflexivity..]. pose proof (New info) as K. cbv zeta in K. destruct (add_new_peer salts now n src info). destruct K as [K|[K1 K2]]; auto.
Qed.

Lemma handle_result_has : forall salts now n src r reply a,
  ahas (n_peers (fst (handle_result salts now n src r reply))) a = true ->
  ahas (n_peers n) a = true \/ (a = src /\ is_initialized r = true).
Proof.
  intros salts now n src r reply a H. destruct (handle_result_peers salts now n src r reply a) as [E|(Ea & [[Hi _]|[_ E]])]; [left|right; auto|]; congruence.
Qed.

Definition answering_object (salts : list (N * N)) (n : node) (src : N) (pc : peer_crypto) : Prop :=
  aget (n_pending n) src = Some pc \/
  (exists pd, aget (n_peers n) src = Some pd /\ pc = p_crypto pd) \/
  pc = snd (new_instance n (salt_for salts (c_num (n_cfg n)) src)).

Lemma answerer_answering : forall salts n src w pl pc, answerer salts n src w = Some (pl, pc) -> answering_object salts n src pc.
Proof.
  intros salts n src w pl pc H. apply answerer_object in H. destruct pl as [[]|pd].
  - right; right. apply H.
  - left. exact H.
  - right; left. exists pd. split; apply H.
Qed.

Lemma put_has : forall salts n src w pl pc pc' a, answerer salts n src w = Some (pl, pc) ->
  ahas (n_peers (put salts n src pl pc')) a = ahas (n_peers n) a.
Proof.
  intros salts n src w pl pc pc' a H. apply answerer_object in H. destruct pl as [[]|pd]; try reflexivity.
  cbn [put upd n_peers]. exact (ahas_aset_present _ _ _ _ _ _ (proj1 H)).
Qed.

(* the per-step fact behind C01 and C14, in its general form: a new peer entry appears only when the object answering for that
   address completes a handshake *)
Theorem peer_creation_by_completion : forall salts now n src w a,
  ahas (n_peers n) a = false -> ahas (n_peers (fst (handle_net salts now n src w))) a = true ->
  a = src /\ exists pc pc' r reply, answering_object salts n src pc /\ pc_handle payload_ok pc w = (pc', Ok r, reply) /\ is_initialized r = true.
Proof.
  intros salts now n src w a Hno H. rewrite handle_net_eq in H.
  destruct (answerer salts n src w) as [[pl pc]|] eqn:Ha; [|cbn [fst with_invalid n_peers] in H; congruence].
  destruct (pc_handle payload_ok pc w) as [[pc' r] reply] eqn:Hh.
  assert (Hput : ahas (n_peers (put salts n src pl pc')) a = false) by (rewrite (put_has _ _ _ _ _ _ _ _ Ha); exact Hno).
  destruct r as [res|c|s].
  - apply handle_result_has in H. destruct H as [H|[Ea Hi]]; [congruence|].
    split; [exact Ea|]. exists pc, pc', res, reply. split; [exact (answerer_answering _ _ _ _ _ _ Ha)|]. split; [exact Hh|exact Hi].
  - cbn [fst] in H. rewrite (proj1 (proj2 (rejected_rest salts n src pl pc' (Err c) ltac:(discriminate)))) in H. congruence.
  - cbn [fst] in H. rewrite (proj1 (proj2 (rejected_rest salts n src pl pc' (Panic s) ltac:(discriminate)))) in H. congruence.
Qed.

Theorem peer_creation_needs_trust : forall salts now n src w a,
  ahas (n_peers n) a = false -> ahas (n_peers (fst (handle_net salts now n src w))) a = true ->
  a = src /\ exists pc i m, answering_object salts n src pc /\ w = WInit m /\ pc_init pc = Some i /\
                            existsb (N.eqb (im_signer m)) (i_trusted i) = true.
Proof.
  intros salts now n src w a Hno H.
  destruct (peer_creation_by_completion salts now n src w a Hno H) as (Ea & pc & pc' & r & reply & Ho & Hh & Hi).
  split; [exact Ea|]. destruct (pc_initialized_needs_trust _ _ _ _ _ _ Hh Hi) as (i & m & Hw & Hpi & Ht).
  exists pc, i, m. repeat split; assumption.
Qed.
