(* C20: from the prefix length of the interface address to its netmask (parse_ip_netmask in src/main.rs). *)
From VpnModel Require Import Base Netmask.
From Coq Require Import ZifyBool.

Definition leading_ones (p : N) : N := 2 ^ 32 - 2 ^ (32 - p).

Lemma mask_sweep : forallb (fun n => mask_of_prefix (N.of_nat n) =? leading_ones (N.of_nat n)) (seq 0 33) = true.
Proof. vm_compute. reflexivity. Qed.

(* C20-T4 (numeric half): every prefix 0..32 gives the mask with that many leading one bits
   (the domain is finite: 33 values, swept inside the kernel and lifted) *)
Theorem mask_spec : forall p, p <= 32 -> mask_of_prefix p = leading_ones p.
Proof.
  intros p H. pose proof mask_sweep as S. rewrite forallb_forall in S.
  specialize (S (N.to_nat p)). rewrite N2Nat.id in S. apply N.eqb_eq, S, in_seq. lia.
Qed.

Theorem netmask_no_panic : forall text ip_ok, is_panic (parse_ip_netmask text ip_ok) = false.
Proof.
  intros text ip_ok. unfold parse_ip_netmask.
  destruct (parse_u8 _) as [p|]; [|reflexivity].
  destruct (32 <? p); [reflexivity|]. destruct (negb ip_ok); reflexivity.
Qed.

Theorem netmask_result : forall text ip_ok m, parse_ip_netmask text ip_ok = Ok m ->
  exists p, p <= 32 /\ m = leading_ones p /\ ip_ok = true /\
    parse_u8 (len_part text) = Some p.
Proof.
  intros text ip_ok m H. unfold parse_ip_netmask in H.
  destruct (parse_u8 _) as [p|] eqn:Ep; [|discriminate].
  destruct (32 <? p) eqn:E32; [discriminate|]. destruct ip_ok; [|discriminate]. cbn [negb] in H.
  inversion H. exists p. repeat split; try lia. apply mask_spec. lia.
Qed.

Theorem netmask_default_24 : forall text, find_byte 47 text = None ->
  parse_ip_netmask text true = Ok (leading_ones 24).
Proof. intros text H. unfold parse_ip_netmask, len_part. rewrite H. vm_compute. reflexivity. Qed.

Theorem netmask_overlong : forall text ip_ok p,
  parse_u8 (len_part text) = Some p ->
  32 < p -> parse_ip_netmask text ip_ok = Err 1.
Proof. intros text ip_ok p H Hp. unfold parse_ip_netmask. rewrite H. assert ((32 <? p) = true) as -> by lia. reflexivity. Qed.
