(* C12 at node level: the paths that remove a peer on a CLOSE message and on a failed connection object remove its routes in the
   same step (the third path, expiry of the peer's timeout, is NodeProofs.expired_peers_removed). *)
From VpnModel Require Import Base BaseProofs PeerCrypto Table Node NodeProofs.

Definition no_routes (n : node) (addr : N) : Prop :=
  aget (n_peers n) addr = None /\
  (forall c, In c (claims (n_table n)) -> c_peer c <> addr) /\
  (forall e, In e (cache (n_table n)) -> e_peer e <> addr).

Theorem close_removes_routes : forall salts now n src body reply, (0 < now)%Z ->
  no_routes (fst (handle_result salts now n src (MMessage MESSAGE_TYPE_CLOSE body) reply)) src \/
  (aget (n_peers n) src = None /\ fst (handle_result salts now n src (MMessage MESSAGE_TYPE_CLOSE body) reply) = n).
Proof.
  intros salts now n src body reply Hnow. cbn [handle_result].
  change (MESSAGE_TYPE_CLOSE =? MESSAGE_TYPE_DATA) with false. change (MESSAGE_TYPE_CLOSE =? MESSAGE_TYPE_NODE_INFO) with false.
  change (MESSAGE_TYPE_CLOSE =? MESSAGE_TYPE_KEEPALIVE) with false. change (MESSAGE_TYPE_CLOSE =? MESSAGE_TYPE_CLOSE) with true.
  cbn iota. cbn [fst]. unfold remove_peer. destruct (aget (n_peers n) src) as [pd|] eqn:E.
  - left. apply unrouted_remove; [exact Hnow|left; reflexivity].
  - right. split; reflexivity.
Qed.

(* the peer's connection object failed in the crypto housekeeping (after the fix of F4) *)
Definition remove_failed (salts : list (N * N)) (now : Z) (del : list N) (st : node * list effect) : node * list effect :=
  fold_left (fun acc addr =>
    let '(m, fx) := acc in
    if ahas (n_peers m) addr then
      let m2 := upd m (adel (n_peers m) addr) (n_pending m) (n_own m) (table_remove_claims (n_table m) now addr) in
      let '(m3, fx') := connect_sock salts m2 addr in (m3, fx ++ fx')
    else (m, fx)) del st.

Lemma crypto_housekeep_shape : forall salts now n,
  crypto_housekeep salts now n =
  let '(n1, fx1, del1) := tick_pending n in
  let '(n2, fx2, del2) := tick_peers n1 in
  remove_failed salts now del2
    (fold_left (fun m addr => upd m (n_peers m) (adel (n_pending m) addr) (n_own m) (n_table m)) del1 n2, fx1 ++ fx2).
Proof. reflexivity. Qed.

Theorem failed_peer_routes_removed : forall salts now del m fx addr, (0 < now)%Z ->
  In addr del -> ahas (n_peers m) addr = true ->
  no_routes (fst (remove_failed salts now del (m, fx))) addr.
Proof.
  intros salts now del m fx addr Hnow Hin Hpeer. unfold remove_failed.
  (* the address is still a peer when its turn comes *)
  apply (fold_left_once _ (fun st => ahas (n_peers (fst st)) addr = true) (fun st => no_routes (fst st) addr) _ addr);
    [| | |exact Hin|exact Hpeer].
  - intros [m0 fx0] H. cbn [fst] in H. rewrite H, pair_app. apply redial_unrouted; [exact Hnow|left; reflexivity].
  - intros [m0 fx0] a H. destruct (ahas (n_peers m0) a); [|exact H]. rewrite pair_app. apply redial_unrouted; [exact Hnow|right; exact H].
  - intros [m0 fx0] a Hne H. destruct (ahas (n_peers m0) a); [|exact H]. rewrite pair_app. cbn [fst] in *.
    rewrite (proj1 (connect_sock_peers salts _ a)). unfold ahas in *. cbn [upd n_peers]. rewrite aget_adel_other by exact Hne. exact H.
Qed.
