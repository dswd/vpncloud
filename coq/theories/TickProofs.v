(* C03 at the PeerCrypto level: every housekeeping second advances the replay window of every key slot of a connection object that
   has a crypto core - whether or not the object still keeps a handshake state, whether or not a rotation happens in that second. *)
From VpnModel Require Import Base Replay Core CoreProofs Conn PcSteps PeerCrypto.

Definition ticked (c c' : core) : Prop :=
  wf_core c' /\ forall i, i < 4 -> s_win (get_slot c' i) = tick (s_win (get_slot c i)) \/ s_win (get_slot c' i) = win0.

Lemma ticked_tick : forall c, wf_core c -> ticked c (core_tick c).
Proof.
  intros c Hwf. split; [apply wf_tick; exact Hwf|]. intros i Hi. left. rewrite tick_all_slots.
  destruct Hwf as [Hl _]. assert ((N.to_nat i <? length (slots c))%nat = true) as -> by (apply Nat.ltb_lt; rewrite Hl; lia). reflexivity.
Qed.

Lemma ticked_rotate : forall c c1 rk rnd, ticked c c1 -> ticked c (apply_rotated c1 rk rnd).
Proof.
  intros c c1 rk rnd [Hwf H]. destruct rk as [k|]; [|split; assumption]. cbn [apply_rotated].
  pose proof (rotate_fresh_window c1 (rk_key k) (rk_id k) (rk_use k) rnd Hwf) as (G1 & G2 & _).
  split; [apply wf_rotate; exact Hwf|]. intros i Hi.
  destruct (N.eq_dec i (rk_id k mod 4)) as [->|Hne].
  - right. rewrite G1. reflexivity.
  - rewrite G2 by exact Hne. apply H. exact Hi.
Qed.

Lemma ticked_encrypt : forall c c1 pl, ticked c c1 -> ticked c (fst (core_encrypt c1 pl)).
Proof.
  intros c c1 pl [Hwf H]. destruct (enc_preserves c1 pl Hwf) as (W & _ & _ & K). split; [exact W|].
  intros i Hi. rewrite (proj2 (K i)). apply H. exact Hi.
Qed.

Theorem every_second_ticks_windows : forall p c, pc_core p = Some c -> wf_core c ->
  exists c', pc_core (fst (fst (pc_every_second p))) = Some c' /\ ticked c c'.
Proof.
  intros p c Hc Hwf.
  assert (T : forall o, core_ticked p o -> exists c1, o = Some c1 /\ ticked c c1).
  { intros o [rk ->]. rewrite Hc. eexists. split; [reflexivity|]. apply ticked_rotate, ticked_tick, Hwf. }
  apply (pc_every_second_cases p (fun t => exists c', pc_core (fst (fst t)) = Some c' /\ ticked c c')).
  - intros io rot o cnt fr r out _ Ho _ _. exact (T o Ho).
  - intros io rot o cnt fr m _ Ho. destruct (T o Ho) as (c1 & -> & T1). rewrite sealed_reply_object.
    destruct (pc_seal_cases (pc_set p io rot (pc_plain p) (Some c1) cnt fr) MESSAGE_TYPE_ROTATION (rot_encode m)) as [(_ & ->)|[(_ & E & _)|(_ & c2 & E & ->)]];
      [exists c1; split; [reflexivity|exact T1]|discriminate E|].
    injection E as <-. eexists. split; [reflexivity|]. apply ticked_encrypt, T1.
Qed.
