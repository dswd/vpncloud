(* C08: no sequence of handshake messages reaches the unwrap of a consumed ECDH key. *)
From VpnModel Require Import Base Core CoreProofs Conn InitSteps PcSteps PeerCrypto InitProofs Node NodeProofs.

Definition fatal (r : res init_result) : bool := match r with Err 2 => true | _ => false end.
Definition panics {A} (r : res A) : bool := match r with Panic _ => true | _ => false end.

(* every outcome of handle_init that is neither fatal (the node then deletes the object) nor a panic leaves the
   invariant of no_panic11 intact: a handshake object waiting for a pong still holds its ECDH key *)
Theorem ecdh_inv_preserved : forall ok s m, ecdh_inv s ->
  fatal (snd (fst (handle_init ok s m))) = false -> panics (snd (fst (handle_init ok s m))) = false ->
  ecdh_inv (fst (fst (handle_init ok s m))).
Proof.
  intros ok s m Hinv. rewrite handle_init_eq. destruct (hi_gate s m) as [e|rep|s0]; [intros _ _; exact Hinv..|].
  (* a message that passed the gate leaves the object waiting for a peng, or completed: not waiting for a pong any more *)
  apply hi_stage_outcomes; cbn [fst snd].
  - intros s' [r|e|p] _ Hr Hf Hp; [destruct Hr|rewrite Hr in Hf; discriminate Hf|discriminate Hp].
  - intros s' reply _ _ K _ _ _ _ Hs. rewrite K in Hs. discriminate Hs.
  - intros s' pl ini rep _ _ K _ _ _ Hs. rewrite K in Hs. destruct ini; discriminate Hs.
Qed.

Definition pinv (p : peer_crypto) : Prop := match pc_init p with Some i => ecdh_inv i | None => True end.

Lemma pinv_new : forall node salt payload key trusted al fresh rnd, pinv (pc_new node salt payload key trusted al fresh rnd).
Proof. intros. unfold pinv, pc_new. cbn [pc_init]. apply ecdh_inv_new. Qed.

(* the unwrap of rotate.rs: the rotation handler panics only in derive_key, on a public key that is not 32 bytes long *)
Lemma rot_handle_panic : forall rs body fr s, fst (rot_handle rs body fr) = Panic s ->
  s = 10 /\ exists m, rot_decode body = Some m /\
    (length (rm_propose m) <> 32%nat \/ exists ck, rm_confirm m = Some ck /\ length ck <> 32%nat).
Proof.
  intros rs body fr s. unfold rot_handle. destruct (rot_decode body) as [m|]; [|discriminate].
  assert (K : forall priv pub, ecdh priv pub = None -> length pub <> 32%nat) by (unfold ecdh; intros priv pub H L; rewrite L in H; discriminate H).
  unfold rot_process. destruct (rm_id m <=? r_mid rs); [discriminate|].
  destruct (ecdh fr (rm_propose m)) eqn:E1; cbn [fst].
  - destruct (rm_confirm m) as [ck|] eqn:Ec; [|discriminate]. destruct (r_proposed rs) as [priv|]; [|discriminate].
    destruct (ecdh priv ck) eqn:E2; [discriminate|]. intros H. injection H as <-.
    split; [reflexivity|]. exists m. split; [reflexivity|]. right. exists ck. split; [exact Ec|exact (K _ _ E2)].
  - intros H. injection H as <-. split; [reflexivity|]. exists m. split; [reflexivity|]. left. exact (K _ _ E1).
Qed.

Lemma pc_handle_panic : forall ok p w s, snd (fst (pc_handle ok p w)) = Panic s ->
  (exists m i, w = WInit m /\ pc_init p = Some i /\ snd (fst (handle_init ok i m)) = Panic s) \/
  (exists d c pl, w = WData d /\ snd (core_decrypt c d) = Ok pl /\
     match pl with
     | [] => s = 13
     | ty :: body => (ty =? MESSAGE_TYPE_ROTATION) = true /\ exists rs fr, fst (rot_handle rs body fr) = Panic s
     end).
Proof.
  intros ok p w s. destruct w as [m| | |d|b]; cbn [pc_handle].
  - intros H. left. destruct (pc_init p) as [i|] eqn:Ei; [|rewrite pc_handle_init_none in H by exact Ei; discriminate H].
    exists m, i. split; [reflexivity|]. split; [reflexivity|].
    destruct (handle_init ok i m) as [[i' r] reply] eqn:Eh. pose proof (pc_handle_init_parts ok p m i i' r reply Ei Eh) as P.
    destruct r as [[|pl ini]|e|s0]; cbn [fst snd].
    + destruct P as (_ & P & _). rewrite P in H. discriminate H.
    + destruct P as (_ & _ & _ & [P|P] & _); rewrite P in H; discriminate H.
    + destruct P as (_ & P & _). rewrite P in H. discriminate H.
    + destruct P as (_ & P & _). rewrite P in H. injection H as <-. reflexivity.
  - destruct (pc_init p); discriminate.
  - discriminate.
  - destruct (pc_plain p) eqn:Epl; [destruct d as [keyid a b c|[|k]]; [destruct (keyid =? MESSAGE_TYPE_ROTATION)| |]; discriminate|].
    destruct (pc_core p) as [c|]; [|discriminate].
    pose proof (decrypt_never_panics c d) as Hp.
    destruct (core_decrypt c d) as [c' [pl|e|s0]] eqn:Ed; [|discriminate|discriminate Hp].
    intros H. right. exists d, c, pl. split; [reflexivity|]. split; [rewrite Ed; reflexivity|].
    destruct pl as [|ty body]; [injection H as <-; reflexivity|].
    destruct (ty =? MESSAGE_TYPE_ROTATION); [split; [reflexivity|]|discriminate H].
    unfold pc_handle_rotate in H. cbn [pc_set pc_plain pc_rot pc_fresh pc_core] in H.
    destruct (pc_rot p) as [rs|]; [|discriminate H]. exists rs, (pc_fresh p).
    destruct (rot_handle rs body (pc_fresh p)) as [[[rs' [k|]]|e|s2] fr]; try discriminate H. injection H as <-. reflexivity.
  - destruct (pc_plain p); [destruct b as [|ty body]; [|destruct (ty =? MESSAGE_TYPE_ROTATION)]; discriminate|].
    destruct (pc_core p) as [c|]; [destruct (core_decrypt c (dgram_of_bytes b))|]; discriminate.
Qed.

Theorem pc_no_panic11 : forall ok p w, pinv p -> snd (fst (pc_handle ok p w)) <> Panic 11.
Proof.
  intros ok p w Hinv H. destruct (pc_handle_panic ok p w 11 H) as [(m & i & _ & Ei & Hp)|(d & c & pl & _ & _ & Hpl)].
  - unfold pinv in Hinv. rewrite Ei in Hinv. exact (no_panic11 ok i m Hinv Hp).
  - destruct pl as [|ty body]; [discriminate Hpl|]. destruct Hpl as (_ & rs & fr & Hr).
    destruct (rot_handle_panic rs body fr 11 Hr) as [E _]. discriminate E.
Qed.

Definition pfatal (r : res msg_result) : bool := match r with Err 2 => true | _ => false end.

Lemma closed_inv : forall i, closed_stage i -> ecdh_inv i.
Proof. intros i [H|H] Hs; rewrite H in Hs; discriminate Hs. Qed.

Theorem pinv_preserved : forall ok p w, pinv p ->
  pfatal (snd (fst (pc_handle ok p w))) = false -> panics (snd (fst (pc_handle ok p w))) = false ->
  pinv (fst (fst (pc_handle ok p w))).
Proof.
  intros ok p w Hinv. unfold pinv in *. apply pc_handle_outcomes.
  - intros p' r [E _ _] _ _ _. cbn [fst]. rewrite E. exact Hinv.
  - intros m i i' r reply _ Ei Eh _. rewrite Ei in Hinv. pose proof (ecdh_inv_preserved ok i m Hinv) as Hpres. rewrite Eh in Hpres.
    cbn [fst snd pc_set pc_init] in *. intros Hf Hp. apply Hpres; destruct r as [[|]|e|s]; assumption || reflexivity.
  - (* completed: what is left of the handshake object is in stage 4, or gone *)
    intros m i i' pl ini reply p' r x _ _ Eh E _ _ _ _ _ _. cbn [fst]. rewrite E. unfold settle. destruct (_ =? CLOSING); [exact I|].
    apply closed_inv. pose proof (success_closes ok i m pl ini) as Hclose. rewrite Eh in Hclose. exact (Hclose eq_refl).
Qed.

(* the cooperating site at node level: a fatal handshake error from a pending object removes that object, so a state that
   violates the invariant (ECDH key consumed, still waiting for a pong) never survives the step that produced it *)
Theorem pending_fatal_deleted : forall salts now n src w pc,
  aget (n_pending n) src = Some pc -> (is_init_wire w || negb (ahas (n_peers n) src)) = true ->
  snd (fst (pc_handle payload_ok pc w)) = Err 2 ->
  aget (n_pending (fst (handle_net salts now n src w))) src = None.
Proof.
  intros salts now n src w pc Hp Hc Hr. unfold handle_net. rewrite Hc, Hp.
  destruct (pc_handle payload_ok pc w) as [[pc' r] reply]. cbn [fst snd] in Hr. subst r.
  cbn [N.eqb Pos.eqb fst upd with_invalid n_pending]. apply aget_adel_same.
Qed.
