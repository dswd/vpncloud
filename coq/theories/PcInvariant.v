(* One invariant about all connection objects of a node, proved once against the transitions of NodeSteps.v: a predicate Pq for the
   objects in the pending map, a predicate Pp for the peers' objects, under a predicate Win on the datagrams that arrive, with a
   predicate Wout on everything that is sent.  A completed handshake is the one place where an object moves from Pq to Pp; a fatal
   error is the one outcome after which a pending object need not satisfy Pq, because it is deleted (`handled` is the shape of what
   an instance shows of a pending object after a datagram).  Most instances use one of the layers on top: `NoWires` (nothing asked
   of the wires), `Uniform` (`AllPC`: one predicate for both maps, lifted to `Node.step` by `step_ap`), `Created` (a predicate on
   the handshake object that depends only on what the object keeps for life). *)
From VpnModel Require Import Base Conn PeerCrypto Node Answerer InitSteps PcSteps NodeProofs TrustProofs NodeSteps.

Lemma all_aset : forall (A : Type) (Q : A -> Prop) (l : list (N * A)) k v,
  (forall a x, aget l a = Some x -> Q x) -> Q v -> forall a x, aget (aset l k v) a = Some x -> Q x.
Proof.
  intros A Q l k v H Hv a x Ha. destruct (N.eq_dec k a) as [<-|Hne].
  - rewrite aget_aset_same in Ha. inversion Ha; subst. exact Hv.
  - rewrite aget_aset_other in Ha by exact Hne. exact (H a x Ha).
Qed.

Lemma all_adel : forall (A : Type) (Q : A -> Prop) (l : list (N * A)) k,
  (forall a x, aget l a = Some x -> Q x) -> forall a x, aget (adel l k) a = Some x -> Q x.
Proof.
  intros A Q l k H a x Ha. destruct (N.eq_dec a k) as [->|Hne].
  - rewrite aget_adel_same in Ha. discriminate.
  - rewrite aget_adel_other in Ha by congruence. exact (H a x Ha).
Qed.

Section Objects.
Variable c : ncfg.
Variables Pq Pp : peer_crypto -> Prop.
Variables Win Wout : wire -> Prop.

Definition handled (p' : peer_crypto) (r : res msg_result) : Prop :=
  match r with
  | Ok res => if is_initialized res then Pp p' else Pq p'
  | Err e => e <> 2 -> Pq p'
  | Panic _ => Pq p'
  end.

Lemma handled_same : (forall p, Pq p -> Pp p) -> forall p' r, Pq p' -> handled p' r.
Proof. intros S p' [res|e|s] H; cbn [handled]; [destruct (is_initialized res); [apply S, H|exact H]|intros _; exact H|exact H]. Qed.

Hypothesis H_new : forall n salt, n_cfg n = c -> Pq (snd (new_instance n salt)).
Hypothesis H_init : forall p, Pq p -> Pq (fst (pc_initialize p)) /\ (forall w, snd (pc_initialize p) = Ok w -> Wout w).
Hypothesis H_handle_q : forall p w, Pq p -> Win w ->
  handled (fst (fst (pc_handle payload_ok p w))) (snd (fst (pc_handle payload_ok p w))) /\
  (forall x, snd (pc_handle payload_ok p w) = Some x -> Wout x).
Hypothesis H_handle_p : forall p w, Pp p -> Win w ->
  Pp (fst (fst (pc_handle payload_ok p w))) /\ (forall x, snd (pc_handle payload_ok p w) = Some x -> Wout x).
Hypothesis H_tick_q : forall p, Pq p -> Pq (fst (fst (pc_every_second p))) /\ (forall x, snd (pc_every_second p) = Some x -> Wout x).
Hypothesis H_tick_p : forall p, Pp p -> Pp (fst (fst (pc_every_second p))) /\ (forall x, snd (pc_every_second p) = Some x -> Wout x).
Hypothesis H_seal : forall p ty b, Pp p -> Pp (fst (pc_seal p ty b)) /\ (forall w, snd (pc_seal p ty b) = Ok w -> Wout w).

Definition Objs (n : node) : Prop :=
  n_cfg n = c /\
  (forall a pc, aget (n_pending n) a = Some pc -> Pq pc) /\
  (forall a pd, aget (n_peers n) a = Some pd -> Pp (p_crypto pd)).

Definition sends_ok (e : effect) : Prop := match e with XSend _ w => Wout w | XWrite _ => True end.

Definition at_place (pl : place) (pc : peer_crypto) : Prop := match pl with InPending _ => Pq pc | InPeers _ => Pp pc end.

Lemma objs_answerer : forall salts n src w pl pc, Objs n -> answerer salts n src w = Some (pl, pc) -> at_place pl pc.
Proof.
  intros salts n src w pl pc (Hc & Hq & Hp) H. apply answerer_object in H. destruct pl as [[]|pd]; cbn [at_place].
  - destruct H as (-> & _). apply H_new, Hc.
  - exact (Hq _ _ H).
  - destruct H as (H & -> & _). exact (Hp _ _ H).
Qed.

Lemma objs_put : forall salts n src pl pc', Objs n -> at_place pl pc' -> Objs (put salts n src pl pc').
Proof.
  intros salts n src pl pc' (Hc & Hq & Hp) H. destruct pl as [fresh|pd]; cbn [put at_place] in *.
  - destruct (origin_rest salts n src fresh) as (E1 & E2 & E3 & _). split; [cbn; congruence|]. cbn [upd n_pending n_peers]. rewrite E2, E3.
    split; [exact (all_aset _ _ _ _ _ Hq H)|exact Hp].
  - split; [exact Hc|]. split; [exact Hq|]. cbn [upd n_peers]. exact (all_aset _ (fun pd => Pp (p_crypto pd)) _ src (with_crypto pd pc') Hp H).
Qed.

Lemma reply_ok : forall src r reply, (forall x, reply = Some x -> Wout x) -> Forall sends_ok (reply_fx src r reply).
Proof.
  intros src r reply H. assert (G : Forall sends_ok (match reply with Some w => [XSend src w] | None => [] end))
    by (destruct reply as [x|]; repeat constructor; apply H; reflexivity).
  destruct r as [[]| |]; cbn [reply_fx]; try constructor; exact G.
Qed.

Lemma tick_ok : forall a r w, (forall x, w = Some x -> Wout x) -> Forall sends_ok (tick_fx a r w).
Proof.
  intros a r w H. destruct r as [[]| |]; cbn [tick_fx]; try constructor. destruct w as [x|]; repeat constructor. apply H. reflexivity.
Qed.

Theorem objs_trans : forall salts now ev sch n fx n', trans salts now ev sch n fx n' ->
  (forall src w, ev = ENet src w -> Win w) -> Objs n -> Objs n' /\ Forall sends_ok fx.
Proof.
  intros salts now ev sch n fx n' T Hw H. pose proof H as (Hc & Hq & Hp).
  destruct T; try (split; [exact H|constructor]).
  (* the transitions that touch an object or the two maps are left, in the order of `trans`: t_dial, t_data, t_promote, t_store,
     t_refresh, t_tick_pending, t_tick_peer, t_seal, t_drop, t_remove *)
  - destruct (H_init (fresh_object salts n a) (H_new _ _ Hc)) as [I1 I2]. rewrite Hini in I1, I2.
    split; [apply objs_put; [exact H|exact I1]|repeat constructor; apply I2; reflexivity].
  - pose proof (objs_answerer _ _ _ _ _ _ H Hans) as Hpc. split; [|repeat constructor].
    assert (G : Objs (put salts n src pl pc')).
    { apply objs_put; [exact H|]. destruct pl as [fresh|pd]; cbn [at_place] in *.
      - destruct (H_handle_q pc w Hpc (Hw _ _ Hev)) as [G _]. rewrite Hh in G. exact G.
      - destruct (H_handle_p pc w Hpc (Hw _ _ Hev)) as [G _]. rewrite Hh in G. exact G. }
    unfold learn. destruct (c_learning _); exact G.
  - destruct (H_handle_q pc w (objs_answerer _ _ _ _ _ _ H Hans) (Hw _ _ Hev)) as [G R]. rewrite Hh in G, R. cbn [fst snd handled] in G, R. rewrite Hdone in G.
    split; [|apply reply_ok; exact R].
    destruct (origin_rest salts n src fresh) as (E1 & E2 & E3 & _). split; [cbn; congruence|]. cbn [upd n_pending n_peers]. rewrite E2, E3.
    split; [exact (all_adel _ _ _ _ Hq)|]. apply (all_aset _ (fun pd => Pp (p_crypto pd)) _ _ _ Hp). rewrite Hpd. exact G.
  - pose proof (objs_answerer _ _ _ _ _ _ H Hans) as Hpc. destruct pl as [fresh|pd]; cbn [at_place] in Hpc.
    + destruct (H_handle_q pc w Hpc (Hw _ _ Hev)) as [G R]. rewrite Hh in G, R. cbn [fst snd] in G, R.
      split; [apply objs_put; [exact H|]|apply reply_ok; exact R]. cbn [at_place].
      destruct r as [res|e|s]; cbn [handled] in G.
      * assert (Hi : is_initialized res = false) by (destruct fresh; exact Hst). rewrite Hi in G. exact G.
      * destruct fresh; [contradiction|exact (G Hst)].
      * destruct fresh; [contradiction|exact G].
    + destruct (H_handle_p pc w Hpc (Hw _ _ Hev)) as [G R]. rewrite Hh in G, R.
      split; [apply objs_put; [exact H|exact G]|apply reply_ok; exact R].
  - split; [|constructor]. split; [exact Hc|]. split; [exact Hq|]. cbn [upd n_peers].
    apply (all_aset _ (fun pd => Pp (p_crypto pd)) _ _ _ Hp). rewrite Hpd. exact (Hp _ _ Hget).
  - destruct (H_tick_q pc (Hq _ _ Hget)) as [G R]. rewrite Htick in G, R.
    split; [|apply tick_ok; exact R]. split; [exact Hc|]. split; [exact (all_aset _ _ _ _ _ Hq G)|exact Hp].
  - destruct (H_tick_p _ (Hp _ _ Hget)) as [G R]. rewrite Htick in G, R.
    split; [|apply tick_ok; exact R]. split; [exact Hc|]. split; [exact Hq|exact (all_aset _ (fun pd => Pp (p_crypto pd)) _ a (with_crypto pd pc') Hp G)].
  - destruct (H_seal _ ty body (Hp _ _ Hget)) as [G R]. rewrite Hseal in G, R.
    split; [|repeat constructor; apply R; reflexivity]. split; [exact Hc|]. split; [exact Hq|exact (all_aset _ (fun pd => Pp (p_crypto pd)) _ a (with_crypto pd pc') Hp G)].
  - split; [|constructor]. split; [exact Hc|]. split; [exact (all_adel _ _ _ _ Hq)|exact Hp].
  - split; [|constructor]. split; [exact Hc|]. split; [exact Hq|exact (all_adel _ _ _ _ Hp)].
Qed.

Lemma objs_new : forall now, Objs (node_new c now).
Proof. intros now. split; [reflexivity|]. split; intros a x Hx; discriminate Hx. Qed.
End Objects.

Section NoWires.
Variable c : ncfg.
Variables Pq Pp : peer_crypto -> Prop.
Hypothesis H_new : forall n salt, n_cfg n = c -> Pq (snd (new_instance n salt)).
Hypothesis H_init : forall p, Pq p -> Pq (fst (pc_initialize p)).
Hypothesis H_handle_q : forall p w, Pq p -> handled Pq Pp (fst (fst (pc_handle payload_ok p w))) (snd (fst (pc_handle payload_ok p w))).
Hypothesis H_handle_p : forall p w, Pp p -> Pp (fst (fst (pc_handle payload_ok p w))).
Hypothesis H_tick_q : forall p, Pq p -> Pq (fst (fst (pc_every_second p))).
Hypothesis H_tick_p : forall p, Pp p -> Pp (fst (fst (pc_every_second p))).
Hypothesis H_seal : forall p ty b, Pp p -> Pp (fst (pc_seal p ty b)).

Theorem objs_trans_quiet : forall salts now ev sch n fx n', trans salts now ev sch n fx n' -> Objs c Pq Pp n -> Objs c Pq Pp n'.
Proof.
  intros salts now ev sch n fx n' T H.
  refine (proj1 (objs_trans c Pq Pp (fun _ => True) (fun _ => True) H_new _ _ _ _ _ _ salts now ev sch n fx n' T (fun _ _ _ => I) H));
    intros; (split; [auto|intros; exact I]).
Qed.
End NoWires.

Definition AllPC (P : ncfg -> peer_crypto -> Prop) (c : ncfg) (n : node) : Prop := Objs c (P c) (P c) n.

Section Uniform.
Variable P : ncfg -> peer_crypto -> Prop.
Hypothesis H_new : forall n salt, P (n_cfg n) (snd (new_instance n salt)).

Lemma ap_answering : forall c salts n src pc, AllPC P c n -> answering_object salts n src pc -> P c pc.
Proof. intros c salts n src pc (Hc & Hq & Hp) [H|[(pd & H & ->)| ->]]; [exact (Hq _ _ H)|exact (Hp _ _ H)|rewrite <- Hc; apply H_new]. Qed.

Hypothesis H_init : forall c p, P c p -> P c (fst (pc_initialize p)).
Hypothesis H_handle : forall c ok p w, P c p -> P c (fst (fst (pc_handle ok p w))).
Hypothesis H_tick : forall c p, P c p -> P c (fst (fst (pc_every_second p))).
Hypothesis H_seal : forall c p ty b, P c p -> P c (fst (pc_seal p ty b)).

Theorem step_ap : forall c salts now n e, AllPC P c n -> AllPC P c (fst (step salts now n e)).
Proof.
  intros c salts now n e. apply step_keeps. intros m fx m'.
  apply (objs_trans_quiet c (P c) (P c)); auto.
  - intros k salt <-. apply H_new.
  - intros p w Hp. apply (handled_same _ _ (fun _ H => H)), H_handle, Hp.
Qed.
End Uniform.

Section Created.
Variable Q : ncfg -> init_state -> Prop.
Hypothesis Q_ident : forall c s s', same_ident s s' -> Q c s -> Q c s'.
Hypothesis Q_new : forall n salt i, pc_init (snd (new_instance n salt)) = Some i -> Q (n_cfg n) i.

Definition created (c : ncfg) (p : peer_crypto) : Prop := on_init (Q c) p.

Theorem step_created : forall c salts now n e, AllPC created c n -> AllPC created c (fst (step salts now n e)).
Proof.
  apply step_ap; [exact Q_new| | | |]; intros c.
  - apply ident_initialize, Q_ident.
  - apply ident_handle, Q_ident.
  - apply ident_tick, Q_ident.
  - intros p ty b. apply on_init_seal.
Qed.

Lemma created_answering : forall c salts n src pc i, AllPC created c n -> answering_object salts n src pc -> pc_init pc = Some i -> Q c i.
Proof. intros c salts n src pc i H Ho. exact (ap_answering created Q_new c salts n src pc H Ho i). Qed.
End Created.
