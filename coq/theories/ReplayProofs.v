(* C03: the replay window (crypto/core.rs) against its specification as the set of counters seen so far. *)
From VpnModel Require Import Base Replay.
From Coq Require Import ZifyBool.

Fixpoint maxl (l : list N) : N := match l with [] => 0 | x :: t => N.max x (maxl t) end.

Lemma maxl_app : forall a b, maxl (a ++ b) = N.max (maxl a) (maxl b).
Proof. induction a as [|x a IH]; intros b; simpl; [lia|]. rewrite IH. lia. Qed.

Lemma forallb_maxl : forall l n, 1 <= n -> forallb (fun m => m <? n) l = (maxl l <? n).
Proof.
  induction l as [|x l IH]; intros n Hn; simpl.
  - symmetry. apply N.ltb_lt. lia.
  - rewrite IH by exact Hn. destruct (x <? n) eqn:E1; destruct (maxl l <? n) eqn:E2; simpl; lia.
Qed.

Definition all_g (g : ghost) : list N := g2 g ++ g1 g ++ g0 g.

(* the three registers are exactly a summary of the history *)
Definition Inv (w : win) (g : ghost) : Prop :=
  (minn w = maxl (g2 g) + 1 \/ (minn w = 0 /\ g2 g = [])) /\
  (next_min w = maxl (g2 g ++ g1 g) + 1 \/ (next_min w = 0 /\ g2 g ++ g1 g = [])) /\
  seen w = maxl (all_g g) /\
  minn w <= next_min w /\ next_min w <= seen w + 1.

Lemma inv0 : Inv win0 ghost0.
Proof. unfold Inv, win0, ghost0, all_g; simpl. repeat split; try (right; split; reflexivity); lia. Qed.

Lemma accepts_agree : forall w g n, Inv w g -> 1 <= n -> accepts w n = ref_accepts g n.
Proof.
  intros w g n (Hm & _ & _ & _) Hn. unfold accepts, ref_accepts.
  rewrite forallb_maxl by exact Hn.
  destruct Hm as [Hm | [Hm Hg]].
  - rewrite Hm. lia.
  - rewrite Hm, Hg. simpl. lia.
Qed.

Lemma inv_deliver : forall w g n, Inv w g -> 1 <= n ->
  Inv (snd (deliver w n)) (ref_step g (Deliver n)).
Proof.
  intros w g n HI Hn. pose proof (accepts_agree w g n HI Hn) as Ha.
  unfold deliver, ref_step. rewrite <- Ha. destruct (accepts w n); [|exact HI].
  destruct HI as (H1 & H2 & H3 & H4 & H5). unfold Inv, all_g in *. simpl.
  repeat split; try assumption.
  - rewrite !maxl_app in *. simpl. clear - H3. destruct (seen w <? n) eqn:E; lia.
  - clear - H5. destruct (seen w <? n) eqn:E; lia.
Qed.

Lemma inv_tick : forall w g, Inv w g -> Inv (tick w) (ref_step g Tick).
Proof.
  intros w g (H1 & H2 & H3 & H4 & H5). unfold Inv, all_g, tick in *. simpl.
  rewrite app_nil_r. repeat split.
  - exact H2.
  - left. rewrite H3. rewrite <- app_assoc. reflexivity.
  - rewrite H3. rewrite <- app_assoc. reflexivity.
  - exact H5.
  - lia.
Qed.

Definition pos_hist (h : list ev) : Prop := Forall (fun e => match e with Deliver n => 1 <= n | Tick => True end) h.

Lemma run_cons_deliver : forall w n t,
  run w (Deliver n :: t) = (fst (deliver w n) :: fst (run (snd (deliver w n)) t), snd (run (snd (deliver w n)) t)).
Proof. intros. simpl. destruct (deliver w n) as [b w']. simpl. destruct (run w' t). reflexivity. Qed.

Lemma ref_run_cons_deliver : forall g n t,
  ref_run g (Deliver n :: t) =
  (ref_accepts g n :: fst (ref_run (ref_step g (Deliver n)) t), snd (ref_run (ref_step g (Deliver n)) t)).
Proof. intros. cbn [ref_run]. destruct (ref_run (ref_step g (Deliver n)) t). reflexivity. Qed.

Lemma fst_deliver : forall w n, fst (deliver w n) = accepts w n.
Proof. intros. unfold deliver. destruct (accepts w n); reflexivity. Qed.

Theorem run_agrees : forall h w g, Inv w g -> pos_hist h ->
  fst (run w h) = fst (ref_run g h) /\ Inv (snd (run w h)) (snd (ref_run g h)).
Proof.
  induction h as [|e h IH]; intros w g HI Hp.
  - split; [reflexivity|exact HI].
  - inversion Hp as [|e' h' He Hh]; subst. destruct e as [n|].
    + rewrite run_cons_deliver, ref_run_cons_deliver. cbn [fst snd].
      pose proof (accepts_agree w g n HI He) as Ha.
      pose proof (inv_deliver w g n HI He) as HI'.
      destruct (IH _ _ HI' Hh) as [IH1 IH2].
      split; [|exact IH2]. rewrite fst_deliver, Ha, IH1. reflexivity.
    + cbn [run ref_run]. apply IH; [apply inv_tick; exact HI|exact Hh].
Qed.

(* C03-T1 for every history from the initial state *)
Corollary accept_iff_history : forall h, pos_hist h -> fst (run win0 h) = fst (ref_run ghost0 h).
Proof. intros h Hp. apply (run_agrees h win0 ghost0 inv0 Hp). Qed.

Definition after (h : list ev) : win := snd (run win0 h).
Definition gafter (h : list ev) : ghost := snd (ref_run ghost0 h).

Lemma inv_after : forall h, pos_hist h -> Inv (after h) (gafter h).
Proof. intros h Hp. apply (run_agrees h win0 ghost0 inv0 Hp). Qed.

Lemma run_app : forall h1 h2 w, snd (run w (h1 ++ h2)) = snd (run (snd (run w h1)) h2).
Proof.
  induction h1 as [|e h1 IH]; intros h2 w; [reflexivity|].
  destruct e as [n|].
  - rewrite <- app_comm_cons. rewrite !run_cons_deliver. cbn [snd]. apply IH.
  - cbn [app run]. apply IH.
Qed.

Lemma deliver_keeps_min : forall w n, minn (snd (deliver w n)) = minn w /\ next_min (snd (deliver w n)) = next_min w
  /\ seen w <= seen (snd (deliver w n)).
Proof. intros w n. unfold deliver. destruct (accepts w n); simpl; [|lia]. destruct (seen w <? n) eqn:E; lia. Qed.

(* C03-T3: a datagram newer than everything seen is always accepted *)
Theorem newest_accepted : forall h n, pos_hist h -> seen (after h) < n -> accepts (after h) n = true.
Proof.
  intros h n Hp Hn. pose proof (inv_after h Hp) as (_ & _ & _ & H1 & H2).
  unfold accepts. lia.
Qed.

Lemma accepted_in_seen : forall w m, accepts w m = true -> m <= seen (snd (deliver w m)).
Proof. intros w m H. unfold deliver. rewrite H. simpl. destruct (seen w <? m) eqn:E; lia. Qed.

Lemma run_monotone : forall h w, minn w <= next_min w -> next_min w <= seen w + 1 -> minn w <= minn (snd (run w h)).
Proof.
  induction h as [|[n|] h IH]; intros w H1 H2; [cbn [run snd]; lia| |].
  - rewrite run_cons_deliver. cbn [snd]. pose proof (deliver_keeps_min w n) as (D1 & D2 & D3).
    rewrite <- D1. apply IH; lia.
  - cbn [run]. transitivity (minn (tick w)); [exact H1|apply IH; cbn [tick minn next_min seen]; lia].
Qed.

(* C03-T2: once something at least as new as n was accepted and two ticks have followed,
   n is rejected, and stays rejected whatever happens afterwards *)
Theorem dies_in_two_ticks : forall h m n rest,
  pos_hist h -> 1 <= m -> n <= m -> accepts (after h) m = true ->
  accepts (snd (run (after (h ++ [Deliver m; Tick; Tick])) rest)) n = false.
Proof.
  intros h m n rest Hp Hm Hnm Hacc.
  assert (Hp' : pos_hist (h ++ [Deliver m; Tick; Tick])).
  { apply Forall_app. split; [exact Hp|]. repeat constructor. exact Hm. }
  pose proof (inv_after _ Hp') as (_ & _ & _ & O1 & O2).
  pose proof (run_monotone rest _ O1 O2) as M1.
  assert (Hmin : m + 1 <= minn (after (h ++ [Deliver m; Tick; Tick]))).
  { unfold after. rewrite run_app. fold (after h). rewrite run_cons_deliver. cbn [snd run tick minn next_min seen].
    pose proof (accepted_in_seen (after h) m Hacc) as Hs. lia. }
  unfold accepts. lia.
Qed.
