(* C02 at the PeerCrypto level: payload leaves sealed and arrives byte-identical. *)
From VpnModel Require Import Base Nonce Replay Core CoreProofs PeerCrypto PcSteps.

Lemma pc_seal_sealed : forall p ty body p' w, pc_plain p = false -> pc_seal p ty body = (p', Ok w) ->
  exists c, pc_core p = Some c /\ w = WData (snd (core_encrypt c (ty :: body))) /\
            pc_core p' = Some (fst (core_encrypt c (ty :: body))).
Proof.
  intros p ty body p' w Hp. destruct (pc_seal_cases p ty body) as [(Ep & _)|[(_ & _ & ->)|(_ & c & Ec & ->)]]; [congruence|discriminate|].
  intros H. injection H as <- <-. exists c. repeat split. exact Ec.
Qed.

Lemma sealed_wire_shape : forall c pl, exists keyid ctr7 k n j,
  snd (core_encrypt c pl) = DG keyid ctr7 (Seal k n pl) j /\ k = s_key (get_slot c (current c)).
Proof. intros c pl. unfold core_encrypt. cbn [snd]. do 5 eexists. split; reflexivity. Qed.

Lemma pc_open_delivers : forall ok p c d ty body, pc_plain p = false -> pc_core p = Some c ->
  snd (core_decrypt c d) = Ok (ty :: body) -> (ty =? MESSAGE_TYPE_ROTATION) = false ->
  snd (fst (pc_handle ok p (WData d))) = Ok (MMessage ty body).
Proof.
  intros ok p c d ty body Hp Hc Hd Ht. cbn [pc_handle]. rewrite Hp, Hc.
  destruct (core_decrypt c d) as [c' r]. cbn [snd] in Hd. subst r. rewrite Ht. reflexivity.
Qed.

Lemma pc_reject_silent : forall ok p c d, pc_plain p = false -> pc_core p = Some c ->
  is_ok (snd (core_decrypt c d)) = false ->
  snd (fst (pc_handle ok p (WData d))) = Err 1 /\ snd (pc_handle ok p (WData d)) = None.
Proof.
  intros ok p c d Hp Hc Hd. cbn [pc_handle]. rewrite Hp, Hc.
  pose proof (decrypt_never_panics c d) as Hn.
  destruct (core_decrypt c d) as [c' [pl|e|s]]; cbn [snd] in *; try discriminate. split; reflexivity.
Qed.

Theorem pc_roundtrip : forall ok p1 p2 c1 c2 ty body p1' w, pc_plain p1 = false -> pc_plain p2 = false ->
  pc_core p1 = Some c1 -> pc_core p2 = Some c2 -> wf_core c1 -> wf_core c2 ->
  s_key (get_slot c2 (current c1)) = s_key (get_slot c1 (current c1)) ->
  let n' := nonce_increment (s_send (get_slot c1 (current c1))) in
  nonce_rebuild (half c2) (nonce_wire n') = n' ->
  accepts (s_win (get_slot c2 (current c1))) (be_val n') = true ->
  (ty =? MESSAGE_TYPE_ROTATION) = false ->
  pc_seal p1 ty body = (p1', Ok w) ->
  snd (fst (pc_handle ok p2 w)) = Ok (MMessage ty body).
Proof.
  intros ok p1 p2 c1 c2 ty body p1' w Hp1 Hp2 Hc1 Hc2 W1 W2 Hk n' Hn Ha Ht Hs.
  destruct (pc_seal_sealed _ _ _ _ _ Hp1 Hs) as (c & Hc & Hw & _). rewrite Hc1 in Hc. inversion Hc; subst c. subst w.
  eapply pc_open_delivers; [exact Hp2|exact Hc2| |exact Ht].
  apply core_roundtrip; assumption.
Qed.
