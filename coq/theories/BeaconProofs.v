(* C17: the beacon (beacon.rs): masking with the key-derived stream, the base-62 body, begin/end markers; encode then decode
   gives the peer list back, and the scanner finds a beacon embedded in other text. *)
From VpnModel Require Import Base BaseProofs Base62 Base62Proofs Sha512 Beacon.

Lemma sha512_length : forall m, length (sha512 m) = 64%nat.
Proof. intros m. unfold sha512. set (r := blocks _ _ _). cbn [flat_map]. rewrite !app_length, !be_enc_length. reflexivity. Qed.

Definition xorl (a k : bytes) : bytes := map (fun p => N.lxor (fst p) (snd p)) (combine a k).

Lemma xorl_length : forall a k, (length a <= length k)%nat -> length (xorl a k) = length a.
Proof. intros a k H. unfold xorl. rewrite map_length, combine_length. lia. Qed.

Lemma xorl_invol : forall a k, (length a <= length k)%nat -> xorl (xorl a k) k = a.
Proof.
  induction a as [|x a IH]; intros k H; [reflexivity|].
  destruct k as [|y k]; [simpl in H; lia|]. unfold xorl in *. cbn [combine map fst snd].
  rewrite IH by (simpl in H; lia). f_equal. rewrite N.lxor_assoc, N.lxor_nilpotent, N.lxor_0_r. reflexivity.
Qed.

Lemma mask_blocks_S : forall f key ty seed iter data,
  mask_blocks (S f) key ty seed iter data =
  xorl (firstn 16 data) (firstn 16 (keystream key ty seed iter)) ++ mask_blocks f key ty seed ((iter + 1) mod 256) (skipn 16 data).
Proof. intros. destruct data; [destruct f|]; reflexivity. Qed.

Lemma block_fits : forall key ty seed iter (data : bytes),
  (length (firstn 16 data) <= length (firstn 16 (keystream key ty seed iter)))%nat.
Proof. intros. unfold keystream. rewrite !firstn_length, sha512_length. lia. Qed.

Lemma block_length : forall key ty seed iter data,
  length (xorl (firstn 16 data) (firstn 16 (keystream key ty seed iter))) = length (firstn 16 data).
Proof. intros. apply xorl_length, block_fits. Qed.

Lemma mask_blocks_length : forall fuel key ty seed iter data,
  length (mask_blocks fuel key ty seed iter data) = length data.
Proof.
  induction fuel as [|f IH]; intros; [reflexivity|].
  rewrite mask_blocks_S, app_length, IH, block_length, <- app_length, firstn_skipn. reflexivity.
Qed.

Lemma split_like : forall n (d X R : bytes), length X = length (firstn n d) -> length R = length (skipn n d) ->
  firstn n (X ++ R) = X /\ skipn n (X ++ R) = R.
Proof.
  intros n d X R HX HR. rewrite firstn_length in HX. rewrite skipn_length in HR.
  rewrite firstn_app, skipn_app. destruct (Nat.le_gt_cases n (length d)).
  - replace (n - length X)%nat with 0%nat by lia. rewrite firstn_all2, skipn_all2 by lia. split; [apply app_nil_r|reflexivity].
  - destruct R; [|simpl in HR; lia]. rewrite firstn_all2, skipn_all2 by lia. rewrite firstn_nil, skipn_nil. split; [apply app_nil_r|reflexivity].
Qed.

Lemma mask_blocks_invol : forall fuel key ty seed iter data,
  mask_blocks fuel key ty seed iter (mask_blocks fuel key ty seed iter data) = data.
Proof.
  induction fuel as [|f IH]; intros; [reflexivity|].
  rewrite (mask_blocks_S f _ _ _ _ data), mask_blocks_S.
  destruct (split_like 16 data _ _ (block_length key ty seed iter data) (mask_blocks_length f key ty seed ((iter + 1) mod 256) (skipn 16 data))) as [-> ->].
  rewrite IH, xorl_invol by apply block_fits. apply firstn_skipn.
Qed.

(* C17-T2: masking is an involution (for every key, seed and data, including lengths beyond 4096
   bytes where the block counter wraps) *)
Theorem mask_involutive : forall key ty seed data, mask key ty seed (mask key ty seed data) = data.
Proof. intros. unfold mask. rewrite mask_blocks_length. apply mask_blocks_invol. Qed.

Theorem crypt_roundtrip : forall key data, decrypt_data key (encrypt_data key data) = (data, true).
Proof.
  intros key data. unfold encrypt_data, decrypt_data.
  rewrite rev_app_distr. cbn [rev app]. rewrite rev_involutive.
  rewrite N.lxor_assoc, N.lxor_nilpotent, N.lxor_0_r.
  rewrite mask_involutive. rewrite N.eqb_refl. reflexivity.
Qed.

Definition peer_ok (p : bytes) : Prop := (length p = 6%nat \/ length p = 18%nat) /\ all_bytes p.

Lemma chunks_concat : forall n (l : list bytes) rest, Forall (fun p => length p = n) l -> chunks n (length l) (concat l ++ rest) = l.
Proof.
  intros n l rest H. induction H as [|p l Hp Hl IH]; [reflexivity|].
  cbn [length concat chunks]. rewrite <- app_assoc, (firstn_app_exact _ p _ n Hp), (skipn_app_exact _ p _ n Hp), IH. reflexivity.
Qed.

Lemma all_bytes_app : forall a b, all_bytes a -> all_bytes b -> all_bytes (a ++ b).
Proof. intros. apply Forall_app. split; assumption. Qed.

Lemma be_enc_bytes : forall n v, all_bytes (be_enc n v).
Proof. induction n as [|n IH]; intros v; [constructor|]. cbn [be_enc]. apply all_bytes_app; [apply IH|]. constructor; [lia|constructor]. Qed.

Lemma be_val_be_enc2 : forall v, v < 65536 -> be_val (be_enc 2 v) = v.
Proof. exact (be_val_enc_small 2). Qed.

Definition plain_decode (now_hour : N) (ttl : option N) (plain : bytes) : list bytes :=
  let thn := be_val (firstn 2 plain) in
  let too_old := match ttl with
                 | None => false
                 | Some t => (t <? (now_hour + 65536 - thn) mod 65536) && (t <? (thn + 65536 - now_hour) mod 65536)
                 end in
  if too_old then [] else
  let v4count := N.to_nat (nth_b 2 plain) in
  let rest := (length plain - 3)%nat in
  if (rest <? v4count * 6)%nat || negb (Nat.eqb ((rest - v4count * 6) mod 18) 0) then [] else
  let body := skipn 3 plain in
  chunks 6 v4count body ++ chunks 18 ((rest - v4count * 6) / 18) (skipn (v4count * 6) body).

Lemma filter_v4_len : forall peers, Forall peer_ok peers ->
  Forall (fun p => length p = 6%nat) (filter is_v4 peers) /\
  Forall (fun p => length p = 18%nat) (filter (fun p => negb (is_v4 p)) peers).
Proof.
  intros peers H. apply (split_by_length 6 18). eapply Forall_impl; [|exact H]. intros p Hp. apply Hp.
Qed.

Lemma peerlist_plain_length : forall hour peers, Forall peer_ok peers ->
  length (peerlist_plain hour peers) =
  (3 + 6 * length (filter is_v4 peers) + 18 * length (filter (fun p => negb (is_v4 p)) peers))%nat.
Proof.
  intros hour peers H. destruct (filter_v4_len peers H) as [F4 F6]. unfold peerlist_plain.
  rewrite !app_length, be_enc_length, (concat_length_const 6 _ F4), (concat_length_const 18 _ F6). cbn [length]. lia.
Qed.

Lemma plain_decode_lists : forall hour now ttl (v4 v6 : list bytes),
  Forall (fun p => length p = 6%nat) v4 -> Forall (fun p => length p = 18%nat) v6 ->
  hour < 65536 -> (length v4 < 256)%nat ->
  (match ttl with None => True | Some t => (now + 65536 - hour) mod 65536 <= t \/ (hour + 65536 - now) mod 65536 <= t end) ->
  plain_decode now ttl (be_enc 2 hour ++ [lenN v4 mod 256] ++ concat v4 ++ concat v6) = v4 ++ v6.
Proof.
  intros hour now ttl v4 v6 F4 F6 Hh Hc Hage. unfold plain_decode.
  assert (Hlen : length (be_enc 2 hour ++ [lenN v4 mod 256] ++ concat v4 ++ concat v6) = (length v4 * 6 + length v6 * 18 + 3)%nat)
    by (rewrite !app_length, be_enc_length, (concat_length_const 6 _ F4), (concat_length_const 18 _ F6); cbn [length]; lia).
  rewrite Hlen, Nat.add_sub. cbn [app].
  destruct (field_then_byte (be_enc 2 hour) (concat v4 ++ concat v6) (lenN v4 mod 256) 2 (be_enc_length 2 hour)) as (_ & -> & -> & ->).
  rewrite (be_val_enc_small 2 hour Hh), (lenN_byte _ v4 Hc).
  assert (Hto : match ttl with None => false | Some t => (t <? (now + 65536 - hour) mod 65536) && (t <? (hour + 65536 - now) mod 65536) end = false).
  { destruct ttl as [t|]; [|reflexivity]. destruct Hage; lia. }
  rewrite Hto.
  assert (Nat.ltb (length v4 * 6 + length v6 * 18) (length v4 * 6) = false) as -> by (apply Nat.ltb_ge; lia).
  rewrite Nat.add_comm, Nat.add_sub, Nat.mod_mul, Nat.div_mul by lia. cbn [Nat.eqb negb orb].
  rewrite (chunks_concat 6 v4 (concat v6) F4), skipn_app_exact by (rewrite (concat_length_const 6 v4 F4); lia).
  rewrite <- (app_nil_r (concat v6)), (chunks_concat 18 v6 [] F6). reflexivity.
Qed.

(* C17-T3 (plain half): the address list survives encode/decode: IPv4 entries in order, then IPv6
   entries in order, for every hour stamp and every age limit that admits the stamp *)
Theorem plain_roundtrip : forall hour now ttl peers,
  Forall peer_ok peers -> hour < 65536 -> (length (filter is_v4 peers) < 256)%nat ->
  (match ttl with None => True | Some t => (now + 65536 - hour) mod 65536 <= t \/ (hour + 65536 - now) mod 65536 <= t end) ->
  plain_decode now ttl (peerlist_plain hour peers) = filter is_v4 peers ++ filter (fun p => negb (is_v4 p)) peers.
Proof.
  intros hour now ttl peers Hp Hh Hc Hage. destruct (filter_v4_len peers Hp) as [F4 F6].
  apply plain_decode_lists; assumption.
Qed.

Lemma peerlist_decode_unfold : forall key now ttl text,
  peerlist_decode key now ttl text =
  match from_base62 text with
  | Ok data => if negb (snd (decrypt_data key (pad_list data))) then [] else plain_decode now ttl (fst (decrypt_data key (pad_list data)))
  | _ => []
  end.
Proof.
  intros. unfold peerlist_decode, plain_decode. destruct (from_base62 text) as [data| |]; try reflexivity.
  destruct (decrypt_data key (pad_list data)) as [plain ok]. reflexivity.
Qed.

Lemma mask_length : forall key ty seed data, length (mask key ty seed data) = length data.
Proof. intros. apply mask_blocks_length. Qed.

Lemma mask_bytes_nonempty : forall key data, encrypt_data key data <> [].
Proof. intros key data H. unfold encrypt_data in H. apply app_eq_nil in H. destruct H; discriminate. Qed.

(* C17-T3: full round trip of the peer list through masking and base 62.  Base 62 drops leading zero
   bytes of the masked body; the decoder restores them up to the next valid length (fix of F9a), which
   is exact unless the first SIX masked bytes are all zero (probability 2^-48 per beacon; stated as
   the residual class below) *)
Definition f9a_residual (key : bytes) (hour : N) (peers : list bytes) : Prop :=
  let e := encrypt_data key (peerlist_plain hour peers) in (6 <= length e - length (strip0 e))%nat.

Lemma lxor_byte : forall x y, x < 256 -> y < 256 -> N.lxor x y < 256.
Proof.
  intros x y Hx Hy. destruct (N.eq_dec (N.lxor x y) 0) as [->|Hnz]; [lia|]. apply (N.log2_lt_pow2 _ 8); [lia|].
  pose proof (N.log2_lxor x y). pose proof (N.log2_le_mono x 255). pose proof (N.log2_le_mono y 255).
  change (N.log2 255) with 7 in *. lia.
Qed.

Lemma xorl_bytes : forall a k, all_bytes a -> all_bytes k -> all_bytes (xorl a k).
Proof.
  induction a as [|x a IH]; intros k Ha Hk; [constructor|]. destruct k as [|y k]; [constructor|].
  inversion Ha; inversion Hk; subst. unfold xorl. cbn [combine map fst snd].
  constructor; [apply lxor_byte|apply IH]; assumption.
Qed.

Lemma nth_b_byte : forall i l, all_bytes l -> nth_b i l < 256.
Proof.
  intros i l H. unfold nth_b. destruct (nth_in_or_default i l 0) as [Hi| ->]; [|lia].
  exact (proj1 (Forall_forall _ l) H _ Hi).
Qed.

Lemma sha512_bytes : forall m, all_bytes (sha512 m).
Proof. intros m. unfold sha512. cbn [flat_map]. repeat (apply all_bytes_app; [apply be_enc_bytes|]). constructor. Qed.

Lemma mask_blocks_bytes : forall fuel key ty seed iter data, all_bytes data -> all_bytes (mask_blocks fuel key ty seed iter data).
Proof.
  induction fuel as [|f IH]; intros key ty seed iter data H; [exact H|].
  rewrite mask_blocks_S. apply all_bytes_app; [|apply IH, Forall_firstn_skipn, H].
  apply xorl_bytes; apply Forall_firstn_skipn; [exact H|apply sha512_bytes].
Qed.

Lemma encrypt_data_bytes : forall key data, all_bytes data -> all_bytes (encrypt_data key data).
Proof.
  intros key data H. unfold encrypt_data. apply all_bytes_app; [apply mask_blocks_bytes; exact H|].
  constructor; [|constructor]. apply lxor_byte; apply nth_b_byte, sha512_bytes.
Qed.

Lemma peerlist_plain_bytes : forall hour peers, Forall peer_ok peers -> all_bytes (peerlist_plain hour peers).
Proof.
  intros hour peers H. unfold peerlist_plain.
  assert (Hf : forall f, all_bytes (concat (filter f peers))).
  { intros f. apply Forall_concat. rewrite Forall_forall in *. intros p Hp. apply filter_In in Hp. destruct Hp as [Hp _]. apply H in Hp. apply Hp. }
  apply all_bytes_app; [apply be_enc_bytes|].
  apply all_bytes_app; [constructor; [lia|constructor]|].
  apply all_bytes_app; apply Hf.
Qed.

Lemma zeros_len : forall n, length (zeros n) = n.
Proof. exact zeros_length. Qed.

Lemma need_pad_spec : forall n k m, (n + k = 4 + 6 * m)%nat -> (k < 6)%nat -> need_pad n = k.
Proof. intros n k m H Hk. unfold need_pad. destruct (Nat.ltb_spec n 4); lia. Qed.

Lemma pad_strip0 : forall e m, length e = (4 + 6 * m)%nat -> (length e - length (strip0 e) < 6)%nat -> pad_list (strip0 e) = e.
Proof.
  intros e m Hl Hk. pose proof (strip0_spec_len e). unfold pad_list.
  rewrite (need_pad_spec _ (length e - length (strip0 e)) m) by lia. apply strip0_pad.
Qed.

Theorem peerlist_roundtrip : forall key hour now ttl peers,
  Forall peer_ok peers -> hour < 65536 -> (length (filter is_v4 peers) < 256)%nat ->
  (match ttl with None => True | Some t => (now + 65536 - hour) mod 65536 <= t \/ (hour + 65536 - now) mod 65536 <= t end) ->
  ~ f9a_residual key hour peers ->
  peerlist_decode key now ttl (peerlist_encode key hour peers) = filter is_v4 peers ++ filter (fun p => negb (is_v4 p)) peers.
Proof.
  intros key hour now ttl peers Hp Hh Hc Hage Hcls.
  set (plain := peerlist_plain hour peers).
  assert (Hpb : all_bytes plain) by (apply peerlist_plain_bytes; exact Hp).
  pose proof (encrypt_data_bytes key plain Hpb) as Heb.
  destruct (base62_roundtrip (encrypt_data key plain) Heb) as (s & Hs1 & Hs2).
  rewrite peerlist_decode_unfold. unfold peerlist_encode. fold plain. rewrite Hs1. cbn [res_bytes_or]. rewrite Hs2.
  assert (Hlen : length (encrypt_data key plain) =
                 (4 + 6 * (length (filter is_v4 peers) + 3 * length (filter (fun p => negb (is_v4 p)) peers)))%nat).
  { unfold encrypt_data, plain. rewrite app_length, mask_length, (peerlist_plain_length _ _ Hp). cbn [length]. lia. }
  rewrite (pad_strip0 _ _ Hlen) by (unfold f9a_residual in Hcls; fold plain in Hcls; lia).
  rewrite crypt_roundtrip. cbn [fst snd negb]. apply plain_roundtrip; assumption.
Qed.

Lemma is_prefix_app : forall p l, is_prefix p (p ++ l) = true.
Proof. induction p as [|x p IH]; intros l; [reflexivity|]. cbn [app is_prefix]. rewrite N.eqb_refl, IH. reflexivity. Qed.

Lemma is_prefix_length : forall p l, is_prefix p l = true -> (length p <= length l)%nat.
Proof.
  induction p as [|a p IH]; intros [|b l] E; try discriminate; cbn [length]; try lia.
  cbn [is_prefix] in E. apply andb_true_iff in E. specialize (IH l (proj2 E)). lia.
Qed.

Lemma find_bound : forall pat l i, find pat l = Some i -> (i + length pat <= length l)%nat /\ is_prefix pat (skipn i l) = true.
Proof.
  intros pat l. induction l as [|x l IH]; intros i H; cbn [find] in H;
    (destruct (is_prefix pat _) eqn:E; [inversion H; subst; split; [exact (is_prefix_length _ _ E)|exact E]|]).
  - discriminate.
  - destruct (find pat l) as [j|]; [|discriminate]. inversion H; subst. destruct (IH j eq_refl) as [I1 I2].
    split; [simpl; lia|exact I2].
Qed.

Lemma sanitize_app : forall a b, sanitize (a ++ b) = sanitize a ++ sanitize b.
Proof. intros. unfold sanitize. apply filter_app. Qed.

Lemma sanitize_alnum : forall l, forallb is_alnum l = true -> sanitize l = l.
Proof.
  induction l as [|x l IH]; intros H; [reflexivity|]. cbn [forallb] in H. apply andb_true_iff in H. destruct H as [H1 H2].
  unfold sanitize in *. cbn [filter]. rewrite H1, IH by exact H2. reflexivity.
Qed.

Lemma sanitize_is_alnum : forall l, forallb is_alnum (sanitize l) = true.
Proof. intros l. apply forallb_forall. intros x Hx. apply filter_In in Hx. apply Hx. Qed.

Lemma alnum_val : forall c, is_alnum c = true -> exists v, b62_val c = Some v.
Proof.
  intros c H. unfold is_alnum in H. unfold b62_val.
  destruct ((48 <=? c) && (c <=? 57)); [eexists; reflexivity|].
  destruct ((65 <=? c) && (c <=? 90)); [eexists; reflexivity|].
  destruct ((97 <=? c) && (c <=? 122)); [eexists; reflexivity|]. discriminate.
Qed.

(* C17-T6 (a): sanitised text always decodes as base 62, so the `expect` in peerlist_decode cannot fire *)
Theorem sanitized_decodes : forall l, forallb is_alnum l = true -> is_ok (from_base62 l) = true.
Proof.
  intros l H. unfold from_base62.
  assert (exists ds, chars_vals l = Some ds) as [ds ->]; [|reflexivity].
  induction l as [|c l IH]; [eexists; reflexivity|]. cbn [forallb] in H. apply andb_true_iff in H. destruct H as [H1 H2].
  destruct (alnum_val c H1) as [v Hv]. destruct (IH H2) as [ds Hds]. cbn [chars_vals]. rewrite Hv, Hds. eexists. reflexivity.
Qed.

(* C17-T4: a beacon embedded in text is found: if the scanner's two `find` calls locate `begin` at
   pos + found and `end` body_len bytes after it, the decoded list starts with the body's peers *)
Theorem scan_embedded : forall fuel key now ttl bgn en data pos found body_len,
  find bgn (skipn pos data) = Some found ->
  find en (skipn (pos + found + length bgn) data) = Some body_len ->
  exists more,
    scan (S fuel) key now ttl bgn en data pos =
    peerlist_decode key now ttl (firstn body_len (skipn (pos + found + length bgn) data)) ++ more.
Proof.
  intros fuel key now ttl bgn en data pos found body_len H1 H2.
  cbn [scan]. rewrite H1, H2. eexists.
  replace (pos + found + length bgn + body_len - (pos + found + length bgn))%nat with body_len by lia. reflexivity.
Qed.

(* C17-T6 (b): every slice the scanner takes lies inside the text (start <= end <= length) *)
Theorem scan_slices_in_range : forall bgn en data pos found body_len,
  (pos <= length data)%nat ->
  find bgn (skipn pos data) = Some found ->
  find en (skipn (pos + found + length bgn) data) = Some body_len ->
  (pos + found + length bgn <= pos + found + length bgn + body_len)%nat /\
  (pos + found + length bgn + body_len + length en <= length data)%nat.
Proof.
  intros bgn en data pos found body_len Hpos H1 H2. split; [lia|].
  apply find_bound in H1. apply find_bound in H2. destruct H1 as [H1 _]. destruct H2 as [H2 _].
  rewrite skipn_length in *. lia.
Qed.
