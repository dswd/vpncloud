(* C12, last sentence, as an invariant of every reachable node state: every next hop the routing table can produce - the owner of a
   claim or of a cached / learned address - is a current peer (RT), carried by the auxiliary fact that handshake objects in the pending
   map never hold a crypto core (PI: so they cannot deliver data that would teach the table an address of a non-peer).
   The file also holds `nrun`, the run of a node over timed events, and the lifting of step invariants to runs (`nrun_inv`,
   `nrun_since`, `reachable_ap`) that every reachable-state file uses. *)
From VpnModel Require Import Base Table TableProofs Conn InitSteps PcSteps PeerCrypto Node Answerer TrustProofs SurviveProofs NodeSteps PcInvariant.

Definition cpeers (t : table) : list N := map c_peer (claims t).
Definition epeers (t : table) : list N := map e_peer (cache t).

Lemma in_map_filter : forall (A B : Type) (f : A -> B) (g : A -> bool) l x, In x (map f (filter g l)) -> In x (map f l).
Proof. intros A B f g l x H. apply in_map_iff in H. destruct H as (y & E & Hy). apply filter_In in Hy. apply in_map_iff. exists y. split; [exact E|apply Hy]. Qed.

Lemma hk_cpeers : forall t now x, In x (cpeers (table_housekeep t now)) -> In x (cpeers t).
Proof. intros t now x. unfold cpeers, table_housekeep. cbn [claims]. apply in_map_filter. Qed.
Lemma hk_epeers : forall t now x, In x (epeers (table_housekeep t now)) -> In x (epeers t).
Proof. intros t now x. unfold epeers, table_housekeep. cbn [cache]. apply in_map_filter. Qed.

Lemma sc_loop_peers : forall peer now cto es new removed,
  map c_peer (fst (fst (sc_loop peer now cto es new removed))) = map c_peer es.
Proof.
  intros peer now cto es new removed. destruct (sc_loop peer now cto es new removed) as [[es' rest] removed'] eqn:E. cbn [fst].
  destruct (sc_loop_spec _ _ _ _ _ _ _ _ _ E) as [F _]. clear E. induction F as [|e e' l l' R F IH]; [reflexivity|]. cbn [map]. rewrite IH. f_equal.
  unfold sc_rel in R. destruct (c_peer e =? peer); [destruct R as [[-> _]| ->]|rewrite R]; reflexivity.
Qed.

Lemma map_zero_epeers : forall peer (l : list centry),
  map e_peer (map (fun e => if e_peer e =? peer then {| e_addr := e_addr e; e_peer := e_peer e; e_timeout := 0%Z |} else e) l) = map e_peer l.
Proof. intros peer l. induction l as [|e t IH]; [reflexivity|]. cbn [map]. rewrite IH. destruct (e_peer e =? peer); reflexivity. Qed.

Lemma sc_cpeers : forall t now peer new x, In x (cpeers (table_set_claims t now peer new)) -> x = peer \/ In x (cpeers t).
Proof.
  intros t now peer new x H. unfold table_set_claims in H.
  pose proof (sc_loop_peers peer now (claim_timeout t) (claims t) new false) as Hp.
  destruct (sc_loop peer now (claim_timeout t) (claims t) new false) as [[es rest] removed]. cbn [fst] in Hp.
  apply hk_cpeers in H. unfold cpeers in H. cbn [claims] in H. rewrite map_app in H. apply in_app_or in H. destruct H as [H|H].
  - right. unfold cpeers. rewrite <- Hp. exact H.
  - left. rewrite map_map in H. cbn [c_peer] in H. apply in_map_iff in H. destruct H as (r & E & _). symmetry. exact E.
Qed.
Lemma sc_epeers : forall t now peer new x, In x (epeers (table_set_claims t now peer new)) -> In x (epeers t).
Proof.
  intros t now peer new x H. unfold table_set_claims in H.
  destruct (sc_loop peer now (claim_timeout t) (claims t) new false) as [[es rest] removed].
  apply hk_epeers in H. unfold epeers in H. cbn [cache] in H. destruct removed; [rewrite map_zero_epeers in H|]; exact H.
Qed.

Lemma ci_epeers : forall c a p to x, In x (map e_peer (cache_insert c a p to)) -> x = p \/ In x (map e_peer c).
Proof.
  intros c a p to x H. unfold cache_insert in H. cbn [map e_peer] in H. destruct H as [H|H]; [left; symmetry; exact H|right; eapply in_map_filter; exact H].
Qed.
Lemma tc_epeers : forall t now a p x, In x (epeers (table_cache t now a p)) -> x = p \/ In x (epeers t).
Proof. intros t now a p x H. unfold table_cache, epeers in *. cbn [set_cache cache] in H. apply ci_epeers in H. exact H. Qed.
Lemma tc_cpeers : forall t now a p, cpeers (table_cache t now a p) = cpeers t.
Proof. reflexivity. Qed.

Lemma cache_get_in : forall c a e, cache_get c a = Some e -> In e c.
Proof.
  induction c as [|h tl IH]; intros a e H; [discriminate H|]. cbn [cache_get] in H.
  destruct (list_eqb (e_addr h) a); [injection H as ->; left; reflexivity|right; exact (IH _ _ H)].
Qed.

Lemma lk_peers : forall t now a,
  cpeers (snd (table_lookup t now a)) = cpeers t /\
  (forall x, In x (epeers (snd (table_lookup t now a))) -> In x (epeers t) \/ In x (cpeers t)) /\
  (forall p, fst (table_lookup t now a) = Some p -> In p (epeers t) \/ In p (cpeers t)).
Proof.
  intros t now a. unfold table_lookup. destruct (cache_get (cache t) a) as [e|] eqn:Eg; cbn [fst snd].
  - split; [reflexivity|]. split; [intros x H; left; exact H|].
    intros p H. injection H as <-. left. exact (in_map e_peer _ _ (cache_get_in _ _ _ Eg)).
  - pose proof (best_claim_spec a (claims t) None) as B. destruct (best_claim (claims t) a None) as [c|]; cbn [fst snd].
    + destruct B as ([B|[Hin _]] & _); [discriminate B|]. pose proof (in_map c_peer _ _ Hin) as Hc. split; [reflexivity|]. split.
      * intros x H. apply ci_epeers in H. destruct H as [->|H]; [right; exact Hc|left; exact H].
      * intros p H. injection H as <-. right. exact Hc.
    + split; [reflexivity|]. split; [intros x H; left; exact H|intros p H; discriminate H].
Qed.

Definition uninit (p : peer_crypto) : Prop := pc_plain p = false /\ pc_core p = None.

Definition handle_post (ok : bytes -> bool) (p' : peer_crypto) (r : res msg_result) : Prop :=
  match r with
  | Ok (MMessage _ _) => False
  | Ok (MInitialized pl) | Ok (MInitializedWithReply pl) => ok pl = true
  | _ => uninit p'
  end.

Lemma uninit_set : forall p i r c f, uninit p -> uninit (pc_set p i r (pc_plain p) (pc_core p) c f).
Proof. intros p i r c f H. exact H. Qed.

Lemma uninit_handle : forall ok p w, uninit p -> handle_post ok (fst (fst (pc_handle ok p w))) (snd (fst (pc_handle ok p w))).
Proof.
  intros ok p w [Hp Hc]. destruct w as [m| | |d|b]; cbn [pc_handle].
  - destruct (pc_init p) as [i|] eqn:Ei; [|rewrite pc_handle_init_none by exact Ei; split; assumption].
    destruct (handle_init ok i m) as [[i' r0] reply] eqn:Eh. pose proof (pc_handle_init_parts ok p m i i' r0 reply Ei Eh) as P. cbv zeta in P.
    destruct r0 as [[|pl ini]|e|s]; try (destruct P as (-> & -> & _); split; assumption).
    destruct P as (_ & _ & _ & [-> | ->] & _); exact (proj1 (handle_init_success _ _ _ _ _ _ _ Eh)).
  - destruct (pc_init p); cbn [fst snd handle_post]; split; assumption.
  - cbn [fst snd handle_post]; split; assumption.
  - rewrite Hp, Hc. cbn [fst snd handle_post]; split; assumption.
  - rewrite Hp, Hc. cbn [fst snd handle_post]; split; assumption.
Qed.

Lemma uninit_tick : forall p, uninit p -> uninit (fst (fst (pc_every_second p))).
Proof.
  intros p [Hp Hc]. destruct (pc_every_second_parts p) as (E & M & _). split; [congruence|].
  rewrite Hc in M. revert M. destruct (pc_core (fst (fst (pc_every_second p)))); [intros []|reflexivity].
Qed.

Lemma uninit_new : forall node salt payload key trusted al fresh rnd, uninit (pc_new node salt payload key trusted al fresh rnd).
Proof. intros. split; reflexivity. Qed.

Lemma uninit_initialize : forall p, uninit p -> uninit (fst (pc_initialize p)).
Proof. intros p H. destruct (pc_initialize_parts p) as [[-> _]|(i & _ & _ & -> & _)]; exact H. Qed.

Definition hops (t : table) (x : N) : Prop := In x (cpeers t) \/ In x (epeers t).
Definition RT (n : node) : Prop := forall x, hops (n_table n) x -> ahas (n_peers n) x = true.
Definition PI (n : node) : Prop := forall a pc, aget (n_pending n) a = Some pc -> uninit pc.

Lemma new_instance_uninit : forall n salt, uninit (snd (new_instance n salt)).
Proof. intros. unfold new_instance. cbn [snd]. apply uninit_new. Qed.

Lemma hops_sc : forall t now peer new x, hops (table_set_claims t now peer new) x -> x = peer \/ hops t x.
Proof.
  intros t now peer new x [H|H].
  - apply sc_cpeers in H. destruct H as [->|H]; [left; reflexivity|right; left; exact H].
  - apply sc_epeers in H. right; right; exact H.
Qed.
Lemma hops_rc : forall t now peer x, (0 < now)%Z -> hops (table_remove_claims t now peer) x -> hops t x /\ x <> peer.
Proof.
  intros t now peer x Hnow H. destruct (remove_claims_clean t now peer Hnow) as (R1 & R2 & R3 & R4).
  destruct H as [H|H]; apply in_map_iff in H; destruct H as (y & <- & Hy).
  - pose proof (R1 y Hy) as Hne. split; [left; exact (in_map c_peer _ _ (proj1 (proj1 (R3 y Hne) Hy)))|exact Hne].
  - pose proof (R2 y Hy) as Hne. split; [right; exact (in_map e_peer _ _ (proj1 (proj1 (R4 y Hne) Hy)))|exact Hne].
Qed.
Lemma hops_tc : forall t now a p x, hops (table_cache t now a p) x -> x = p \/ hops t x.
Proof.
  intros t now a p x [H|H].
  - rewrite tc_cpeers in H. right; left; exact H.
  - apply tc_epeers in H. destruct H as [->|H]; [left; reflexivity|right; right; exact H].
Qed.
Lemma hops_hk : forall t now x, hops (table_housekeep t now) x -> hops t x.
Proof. intros t now x [H|H]; [left; eapply hk_cpeers; exact H|right; eapply hk_epeers; exact H]. Qed.
Lemma hops_lk : forall t now a x, hops (snd (table_lookup t now a)) x -> hops t x.
Proof.
  intros t now a x H. destruct (lk_peers t now a) as (Hc & He & _). destruct H as [H|H].
  - rewrite Hc in H. left; exact H.
  - apply He in H. destruct H as [H|H]; [right|left]; exact H.
Qed.

Definition INV (n : node) : Prop := RT n /\ PI n.

Lemma inv_with_invalid : forall n, INV n -> INV (with_invalid n).
Proof. intros n H. exact H. Qed.

(* PI is the object invariant with nothing asked of the peers' objects: an object without a core hands out no data message, and
   stays without one unless it completes its handshake *)
Lemma trans_pi : forall salts now ev sch n fx n', trans salts now ev sch n fx n' -> PI n -> PI n'.
Proof.
  intros salts now ev sch n fx n' T H.
  assert (G : Objs (n_cfg n) uninit (fun _ => True) n').
  { refine (objs_trans_quiet (n_cfg n) uninit (fun _ => True) _ _ _ _ _ _ _ salts now ev sch n fx n' T _); try (intros; exact I).
    - intros m salt _. apply new_instance_uninit.
    - apply uninit_initialize.
    - intros p w Hp. pose proof (uninit_handle payload_ok p w Hp) as G. unfold handled.
      destruct (snd (fst (pc_handle payload_ok p w))) as [[ty body|pl|pl| |]|e|s]; cbn [handle_post is_initialized] in *;
        [destruct G|exact I|exact I|exact G|exact G|intros _; exact G|exact G].
    - apply uninit_tick.
    - split; [reflexivity|split; [exact H|intros; exact I]]. }
  destruct G as (_ & G & _). exact G.
Qed.

Lemma rt_mono : forall n n', (forall x, hops (n_table n') x -> hops (n_table n) x) ->
  (forall x, ahas (n_peers n) x = true -> ahas (n_peers n') x = true) -> RT n -> RT n'.
Proof. intros n n' T P H x Hx. apply P, H, T, Hx. Qed.

Lemma rt_peers_aset : forall n a pd q own, RT n -> RT (upd n (aset (n_peers n) a pd) q own (n_table n)).
Proof. intros n a pd q own. apply rt_mono; [intros x Hx; exact Hx|intros x Hx; apply ahas_aset_keep, Hx]. Qed.

Lemma rt_put : forall salts n src pl pc', RT n -> RT (put salts n src pl pc').
Proof. intros salts n src [[]|pd] pc' H; [exact H|exact H|apply rt_peers_aset, H]. Qed.

(* The table learns an address only from a data message, and an object that could open one has a core: by PI it is a peer's.
   Claims are set for a peer; a peer goes together with every route to it (this needs a positive clock: time-outs of 0 mark
   removed entries). *)
Lemma trans_rt : forall salts now ev sch n fx n', (0 < now)%Z -> trans salts now ev sch n fx n' -> PI n -> RT n -> RT n'.
Proof.
  intros salts now ev sch n fx n' Hnow T Hpi H. destruct T; try exact H; try (apply rt_peers_aset, H).
  (* left, in the order of `trans`: t_lookup, t_sweep, t_data, t_promote, t_store, t_claims, t_remove *)
  - revert H. apply rt_mono; [apply hops_lk|intros x Hx; exact Hx].
  - revert H. apply rt_mono; [apply hops_hk|intros x Hx; exact Hx].
  - pose proof (rt_put salts n src pl pc' H) as G. unfold learn. destruct (c_learning _); [|exact G].
    pose proof (answerer_object _ _ _ _ _ _ Hans) as Ho. destruct pl as [fresh|pd].
    + assert (Hu : uninit pc) by (destruct fresh; [destruct Ho as (-> & _); apply new_instance_uninit|exact (Hpi _ _ Ho)]).
      pose proof (uninit_handle payload_ok pc w Hu) as K. rewrite Hh in K. destruct K.
    + intros x Hx. apply hops_tc in Hx. destruct Hx as [->|Hx]; [|exact (G x Hx)].
      cbn [put upd n_peers]. rewrite ahas_aset, N.eqb_refl. reflexivity.
  - destruct fresh; apply rt_peers_aset, H.
  - apply rt_put, H.
  - intros x Hx. apply hops_sc in Hx. destruct Hx as [->|Hx]; [exact Hpeer|exact (H x Hx)].
  - intros x Hx. apply (hops_rc _ _ _ _ Hnow) in Hx. destruct Hx as [Hx Hne]. cbn [upd n_peers]. rewrite ahas_adel_other by exact Hne. exact (H x Hx).
Qed.

Theorem step_inv : forall salts now n e, (0 < now)%Z -> INV n -> INV (fst (step salts now n e)).
Proof.
  intros salts now n e Hnow. apply step_keeps. intros m fx m' T [Hrt Hpi].
  split; [exact (trans_rt _ _ _ _ _ _ _ Hnow T Hpi Hrt)|exact (trans_pi _ _ _ _ _ _ _ T Hpi)].
Qed.

Lemma node_new_inv : forall c now, INV (node_new c now).
Proof. intros c now. split; [intros x [H|H]; destruct H|intros a pc H; discriminate H]. Qed.

(* every state a node can reach: any events, at any (positive, not necessarily monotone) times, with any oracle salts *)
Fixpoint nrun (salts : list (N * N)) (n : node) (evs : list (Z * event)) : node :=
  match evs with
  | [] => n
  | (now, e) :: t => nrun salts (fst (step salts now n e)) t
  end.

Lemma nrun_inv : forall salts (C : Z * event -> Prop) (P : node -> Prop),
  (forall now e n, C (now, e) -> P n -> P (fst (step salts now n e))) ->
  forall evs n, Forall C evs -> P n -> P (nrun salts n evs).
Proof.
  intros salts C P H. induction evs as [|[now e] t IH]; intros n Hall Hn; [exact Hn|]. cbn [nrun]. inversion Hall; subst.
  apply IH; [assumption|]. apply H; assumption.
Qed.

Lemma nrun_inv0 : forall salts (P : node -> Prop), (forall now e n, P n -> P (fst (step salts now n e))) ->
  forall evs n, P n -> P (nrun salts n evs).
Proof. intros salts P H evs n. apply (nrun_inv salts (fun _ => True)); [intros now e m _; apply H|apply Forall_forall; intros; exact I]. Qed.

Lemma nrun_since : forall salts (I : node -> Prop) (P : node -> bool),
  (forall now e n, I n -> I (fst (step salts now n e))) ->
  forall evs n, I n -> P (nrun salts n evs) = true ->
  P n = true \/ exists now e m, In (now, e) evs /\ I m /\ P m = false /\ P (fst (step salts now m e)) = true.
Proof.
  intros salts I P HI. induction evs as [|[now e] t IH]; intros n Hn H; [left; exact H|]. cbn [nrun] in H.
  destruct (IH _ (HI now e n Hn) H) as [H1|(now' & e' & m & Hin & G)].
  - destruct (P n) eqn:E; [left; reflexivity|]. right. exists now, e, n. split; [left; reflexivity|]. split; [exact Hn|]. split; [exact E|exact H1].
  - right. exists now', e', m. split; [right; exact Hin|exact G].
Qed.

Theorem reachable_ap : forall P : ncfg -> peer_crypto -> Prop,
  (forall n salt, P (n_cfg n) (snd (new_instance n salt))) -> (forall c p, P c p -> P c (fst (pc_initialize p))) ->
  (forall c ok p w, P c p -> P c (fst (fst (pc_handle ok p w)))) -> (forall c p, P c p -> P c (fst (fst (pc_every_second p)))) ->
  (forall c p ty b, P c p -> P c (fst (pc_seal p ty b))) ->
  forall c salts t0 evs, AllPC P c (nrun salts (node_new c t0) evs).
Proof.
  intros P H1 H2 H3 H4 H5 c salts t0 evs. apply nrun_inv0; [intros now e n; apply step_ap; assumption|apply objs_new].
Qed.

Theorem reachable_inv : forall salts c t0 evs, Forall (fun te => (0 < fst te)%Z) evs -> INV (nrun salts (node_new c t0) evs).
Proof.
  intros salts c t0 evs Hall. apply (nrun_inv salts (fun te => (0 < fst te)%Z)); [|exact Hall|apply node_new_inv].
  intros now e n Hnow. apply step_inv, Hnow.
Qed.

(* C12, last sentence: whatever next hop a lookup selects in a reachable state is a current peer *)
Theorem next_hop_is_peer : forall salts c t0 evs now dst p, Forall (fun te => (0 < fst te)%Z) evs ->
  fst (table_lookup (n_table (nrun salts (node_new c t0) evs)) now dst) = Some p ->
  ahas (n_peers (nrun salts (node_new c t0) evs)) p = true.
Proof.
  intros salts c t0 evs now dst p Hall Hl. destruct (reachable_inv salts c t0 evs Hall) as [Hrt _].
  destruct (lk_peers (n_table (nrun salts (node_new c t0) evs)) now dst) as (_ & _ & Hp).
  apply Hrt. destruct (Hp p Hl) as [H|H]; [right|left]; exact H.
Qed.

(* ... hence the interface path never takes the "not a peer" branch of send_data *)
Theorem iface_never_selects_non_peer : forall salts c t0 evs now frame s dst p t', Forall (fun te => (0 < fst te)%Z) evs ->
  let n := nrun salts (node_new c t0) evs in
  parse_frame (n_cfg n) frame = Ok (s, dst) -> table_lookup (n_table n) now dst = (Some p, t') ->
  exists pd, aget (n_peers n) p = Some pd.
Proof.
  intros salts c t0 evs now frame s dst p t' Hall n _ Hl.
  pose proof (next_hop_is_peer salts c t0 evs now dst p Hall) as H. fold n in H. rewrite Hl in H. specialize (H eq_refl).
  unfold ahas in H. destruct (aget (n_peers n) p) as [pd|]; [exists pd; reflexivity|discriminate].
Qed.

(* non-vacuity: a reachable state (node B after A's ping and peng) whose table does select a next hop *)
Definition cA : ncfg := {| c_num := 1; c_addr := 1001; c_peer_timeout := 300; c_keepalive := None; c_switch_timeout := 300;
  c_learning := false; c_broadcast := false; c_tap := false; c_claims := [([10;0;1;0], 24)]; c_key := 7; c_trusted := [7];
  c_algos := {| a_list := [(1, 1)]; a_plain := false |}; c_advertise := []; c_hkfault := false |}.
Definition cB : ncfg := {| c_num := 2; c_addr := 1002; c_peer_timeout := 300; c_keepalive := None; c_switch_timeout := 300;
  c_learning := false; c_broadcast := false; c_tap := false; c_claims := [([10;0;2;0], 24)]; c_key := 7; c_trusted := [7];
  c_algos := {| a_list := [(1, 1)]; a_plain := false |}; c_advertise := []; c_hkfault := false |}.
Definition first_send (fx : list effect) : wire := match fx with XSend _ w :: _ => w | _ => WEmpty end.
Definition salts : list (N * N) := [(salt_key 1 1002, 11); (salt_key 2 1001, 22)].
Definition ex_evs : list (Z * event) :=
  let '(a1, f1) := step salts 1 (node_new cA 1) (EConnect 1002) in
  let '(b1, f2) := step salts 1 (node_new cB 1) (ENet 1001 (first_send f1)) in
  let '(a2, f3) := step salts 1 a1 (ENet 1002 (first_send f2)) in
  [(1%Z, ENet 1001 (first_send f1)); (1%Z, ENet 1001 (first_send f3))].
Definition ex_b := nrun salts (node_new cB 1) ex_evs.

Lemma ex_reachable_selects : Forall (fun te => (0 < fst te)%Z) ex_evs /\
  fst (table_lookup (n_table (nrun salts (node_new cB 1) ex_evs)) 2 [10;0;1;9]) = Some 1001 /\
  ahas (n_peers (nrun salts (node_new cB 1) ex_evs)) 1001 = true.
Proof. split; [|split]; [|vm_compute; reflexivity|vm_compute; reflexivity]. vm_compute. repeat constructor. Qed.

Theorem reachable_routes_point_at_peers : forall salts c t0 evs, Forall (fun te => (0 < fst te)%Z) evs ->
  let n := nrun salts (node_new c t0) evs in
  (forall cl, In cl (claims (n_table n)) -> ahas (n_peers n) (c_peer cl) = true) /\
  (forall e, In e (cache (n_table n)) -> ahas (n_peers n) (e_peer e) = true) /\
  (forall a pc, aget (n_pending n) a = Some pc -> pc_plain pc = false /\ pc_core pc = None).
Proof.
  intros salts c t0 evs Hall n. destruct (reachable_inv salts c t0 evs Hall) as [Hrt Hpi]. fold n in Hrt, Hpi. split; [|split].
  - intros cl H. apply Hrt. left. unfold cpeers. apply in_map. exact H.
  - intros e H. apply Hrt. right. unfold epeers. apply in_map. exact H.
  - exact Hpi.
Qed.
