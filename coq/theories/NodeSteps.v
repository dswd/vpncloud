(* A node step as a sequence of atomic transitions.  `trans` lists what a node does to its state, one constructor per kind of change,
   each with the facts that say where a new or changed connection object came from; `step_path`: every `Node.step` is a sequence
   of such transitions that emits at least what the step emits.  An invariant of the node is proved against `trans`, one short case
   per constructor, and holds along every step (`reach_inv`).
   `trans` bounds the step from above and is not its graph: counters move arbitrarily (`t_count`), an entry may be dropped or a peer
   removed at any time (`t_drop`, `t_remove`), and `reach` compares emissions by inclusion, since the reply of a completed
   handshake is emitted after the dials that follow it.  That is what an invariant needs; what a step emits exactly, and that
   something does happen, is proved on the functions themselves (FloodProofs, RedialProofs, AnnounceProofs). *)
From VpnModel Require Import Base BaseProofs Table PeerCrypto NodeInfo Interval Node Answerer NodeProofs TrustProofs.

Definition reply_fx (src : N) (r : res msg_result) (reply : option wire) : list effect :=
  match r with
  | Ok MReply | Ok (MInitializedWithReply _) => match reply with Some w => [XSend src w] | None => [] end
  | _ => []
  end.

Definition tick_fx (a : N) (r : res msg_result) (w : option wire) : list effect :=
  match r with Ok MReply => match w with Some x => [XSend a x] | None => [] end | _ => [] end.

Definition counted (n : node) (dropped invalid objs : N) : node :=
  {| n_cfg := n_cfg n; n_peers := n_peers n; n_pending := n_pending n; n_own := n_own n; n_table := n_table n;
     n_next_peers := n_next_peers n; n_next_own_reset := n_next_own_reset n; n_reconnect := n_reconnect n;
     n_dropped := dropped; n_invalid := invalid; n_objs := objs |}.

(* which results leave the object stored where it lives: a peer's always; a pending or fresh one unless it completed its handshake
   (then it is promoted); a pending one unless it failed fatally (then it is deleted); a fresh one only if it succeeded *)
Definition stored (pl : place) (r : res msg_result) : Prop :=
  match pl, r with
  | InPeers _, _ => True
  | InPending _, Ok res => is_initialized res = false
  | InPending false, Err c => c <> 2
  | InPending false, Panic _ => True
  | InPending true, _ => False
  end.

Section Steps.
Variables (salts : list (N * N)) (now : Z).
(* the event being processed: it ties the datagram a connection object handles to what arrived *)
Variable ev : event.

Definition learn (n : node) (s : bytes) (src : N) : node :=
  if c_learning (n_cfg n) then upd n (n_peers n) (n_pending n) (n_own n) (table_cache (n_table n) now s src) else n.

(* The boolean says whether the schedule (announcement and reset times, reconnect list) may change: only t_sched does that. *)
Inductive trans : bool -> node -> list effect -> node -> Prop :=
| t_count : forall sch n d i o, trans sch n [] (counted n d i o)
| t_sched : forall n np no rc, trans true n [] (with_sched n np no rc)
  (* addresses that a peer lists under this node's id are adopted; every five minutes the list is reset to the configured one *)
| t_adopt : forall sch n own (Hincl : incl (n_own n) own), trans sch n [] (upd n (n_peers n) (n_pending n) own (n_table n))
| t_own_reset : forall sch n, trans sch n [] (upd n (n_peers n) (n_pending n) (c_advertise (n_cfg n) ++ [c_addr (n_cfg n)]) (n_table n))
| t_lookup : forall sch n dst, trans sch n [] (upd n (n_peers n) (n_pending n) (n_own n) (snd (table_lookup (n_table n) now dst)))
| t_sweep : forall sch n, trans sch n [] (upd n (n_peers n) (n_pending n) (n_own n) (table_housekeep (n_table n) now))
  (* connect_sock: a new handshake object sends its ping *)
| t_dial : forall sch n a pc' w
    (Hpeer : ahas (n_peers n) a = false) (Hown : memN a (n_own n) = false) (Hpend : ahas (n_pending n) a = false)
    (Hini : pc_initialize (fresh_object salts n a) = (pc', Ok w)),
    trans sch n [XSend a w] (put salts n a (InPending true) pc')
| t_data : forall sch n src w pl pc pc' reply body s d
    (Hev : ev = ENet src w) (Hans : answerer salts n src w = Some (pl, pc))
    (Hh : pc_handle payload_ok pc w = (pc', Ok (MMessage MESSAGE_TYPE_DATA body), reply)) (Hframe : parse_frame (n_cfg n) body = Ok (s, d)),
    trans sch n [XWrite body] (learn (put salts n src pl pc') s src)
  (* a pending or fresh object completed its handshake: it moves to a new peer entry (add_new_peer) *)
| t_promote : forall sch n src w fresh pc pc' res reply pd
    (Hev : ev = ENet src w) (Hans : answerer salts n src w = Some (InPending fresh, pc))
    (Hh : pc_handle payload_ok pc w = (pc', Ok res, reply)) (Hdone : is_initialized res = true) (Hpd : p_crypto pd = pc'),
    trans sch n (reply_fx src (Ok res) reply)
      (let m := origin salts n src fresh in upd m (aset (n_peers m) src pd) (adel (n_pending m) src) (n_own m) (n_table m))
| t_store : forall sch n src w pl pc pc' r reply
    (Hev : ev = ENet src w) (Hans : answerer salts n src w = Some (pl, pc)) (Hh : pc_handle payload_ok pc w = (pc', r, reply))
    (Hst : stored pl r),
    trans sch n (reply_fx src r reply) (put salts n src pl pc')
  (* update_peer_info before it dials: the entry is rewritten around its connection object; node information replaces the claims *)
| t_refresh : forall sch n a pd pd' (Hget : aget (n_peers n) a = Some pd) (Hpd : p_crypto pd' = p_crypto pd),
    trans sch n [] (upd n (aset (n_peers n) a pd') (n_pending n) (n_own n) (n_table n))
| t_claims : forall sch n a claims (Hpeer : ahas (n_peers n) a = true),
    trans sch n [] (upd n (n_peers n) (n_pending n) (n_own n) (table_set_claims (n_table n) now a claims))
| t_tick_pending : forall sch n a pc pc' r w (Hget : aget (n_pending n) a = Some pc) (Htick : pc_every_second pc = (pc', r, w)),
    trans sch n (tick_fx a r w) (upd n (n_peers n) (aset (n_pending n) a pc') (n_own n) (n_table n))
| t_tick_peer : forall sch n a pd pc' r w (Hget : aget (n_peers n) a = Some pd) (Htick : pc_every_second (p_crypto pd) = (pc', r, w)),
    trans sch n (tick_fx a r w) (upd n (aset (n_peers n) a (with_crypto pd pc')) (n_pending n) (n_own n) (n_table n))
| t_seal : forall sch n a pd ty body pc' w (Hget : aget (n_peers n) a = Some pd) (Hseal : pc_seal (p_crypto pd) ty body = (pc', Ok w)),
    trans sch n [XSend a w] (upd n (aset (n_peers n) a (with_crypto pd pc')) (n_pending n) (n_own n) (n_table n))
  (* a handshake that failed *)
| t_drop : forall sch n a, trans sch n [] (upd n (n_peers n) (adel (n_pending n) a) (n_own n) (n_table n))
  (* a peer that closed, timed out or whose connection failed goes with its claims *)
| t_remove : forall sch n a, trans sch n [] (upd n (adel (n_peers n) a) (n_pending n) (n_own n) (table_remove_claims (n_table n) now a)).

Inductive steps (sch : bool) : node -> list effect -> node -> Prop :=
| steps_refl : forall n, steps sch n [] n
| steps_cons : forall n fx m fx' n', trans sch n fx m -> steps sch m fx' n' -> steps sch n (fx ++ fx') n'.

Lemma steps_trans : forall sch n fx m fx' n', steps sch n fx m -> steps sch m fx' n' -> steps sch n (fx ++ fx') n'.
Proof.
  intros sch n fx m fx' n' P Q. induction P as [|n fx m fx1 n1 T P IH]; [exact Q|].
  rewrite <- app_assoc. exact (steps_cons _ _ _ _ _ _ T (IH Q)).
Qed.

Definition reach (sch : bool) (n : node) (fx : list effect) (n' : node) : Prop := exists fx', steps sch n fx' n' /\ incl fx fx'.

Lemma reach_refl : forall sch n, reach sch n [] n.
Proof. intros. exists []. split; [constructor|apply incl_refl]. Qed.
Lemma reach_one : forall sch n fx n', trans sch n fx n' -> reach sch n fx n'.
Proof. intros sch n fx n' T. exists (fx ++ []). split; [exact (steps_cons _ _ _ _ _ _ T (steps_refl _ _))|apply incl_appl, incl_refl]. Qed.
Lemma reach_trans : forall sch n fx m fx' n', reach sch n fx m -> reach sch m fx' n' -> reach sch n (fx ++ fx') n'.
Proof.
  intros sch n fx m fx' n' (g & P & I) (g' & Q & J). exists (g ++ g'). split; [exact (steps_trans _ _ _ _ _ _ P Q)|apply incl_app_app; assumption].
Qed.
Lemma reach_incl : forall sch n fx fx0 n', reach sch n fx n' -> incl fx0 fx -> reach sch n fx0 n'.
Proof. intros sch n fx fx0 n' (g & P & I) J. exists g. split; [exact P|exact (incl_tran J I)]. Qed.
Lemma reach_then : forall sch n fx m n', reach sch n fx m -> reach sch m [] n' -> reach sch n fx n'.
Proof. intros sch n fx m n' A B. eapply reach_incl; [exact (reach_trans _ _ _ _ _ _ A B)|apply incl_appl, incl_refl]. Qed.

Arguments reach_one {sch n fx n'}.
Arguments reach_trans {sch n fx m fx' n'}.
Arguments reach_incl {sch n fx fx0 n'}.
Arguments reach_then {sch n fx m n'}.

Lemma fold_reach : forall sch (S A : Type) (nd : S -> node) (ef : S -> list effect) (f : S -> A -> S) n,
  (forall s a, reach sch n (ef s) (nd s) -> reach sch n (ef (f s a)) (nd (f s a))) ->
  forall l s, reach sch n (ef s) (nd s) -> reach sch n (ef (fold_left f l s)) (nd (fold_left f l s)).
Proof. intros sch S A nd ef f n. apply (fold_left_inv _ _ (fun s => reach sch n (ef s) (nd s))). Qed.

Lemma reach_inv : forall sch (I : node -> Prop) (E : effect -> Prop),
  (forall n fx n', trans sch n fx n' -> I n -> I n' /\ Forall E fx) ->
  forall n fx n', reach sch n fx n' -> I n -> I n' /\ Forall E fx.
Proof.
  intros sch I E H n fx n' (g & P & J) Hn.
  assert (G : I n' /\ Forall E g).
  { clear J. induction P as [|n g m g' n' T P IH]; [split; [exact Hn|constructor]|].
    destruct (H _ _ _ T Hn) as [Hm Hg]. destruct (IH Hm) as [Hn' Hg']. split; [exact Hn'|apply Forall_app; split; assumption]. }
  destruct G as [G1 G2]. split; [exact G1|]. rewrite Forall_forall in *. intros x Hx. apply G2, J, Hx.
Qed.

Lemma reach_inv0 : forall sch (P : node -> Prop), (forall n fx n', trans sch n fx n' -> P n -> P n') ->
  forall n fx n', reach sch n fx n' -> P n -> P n'.
Proof.
  intros sch P H n fx n' R Hn. refine (proj1 (reach_inv sch P (fun _ => True) _ n fx n' R Hn)).
  intros m g m' T Hm. split; [exact (H _ _ _ T Hm)|]. apply Forall_forall. intros; exact I.
Qed.

Lemma connect_sock_path : forall sch n a, reach sch n (snd (connect_sock salts n a)) (fst (connect_sock salts n a)).
Proof.
  intros sch n a.
  change (connect_sock salts n a) with
    (if ahas (n_peers n) a || memN a (n_own n) || ahas (n_pending n) a then (n, [])
     else match pc_initialize (fresh_object salts n a) with
          | (pc', Ok w) => (put salts n a (InPending true) pc', [XSend a w])
          | (_, _) => (origin salts n a true, [])
          end).
  destruct (ahas (n_peers n) a) eqn:E1; [apply reach_refl|]. destruct (memN a (n_own n)) eqn:E2; [apply reach_refl|].
  destruct (ahas (n_pending n) a) eqn:E3; [apply reach_refl|]. cbn [orb].
  destruct (pc_initialize (fresh_object salts n a)) as [pc' [w|e|s]] eqn:Ei; cbn [fst snd].
  - exact (reach_one (t_dial sch n a pc' w E1 E2 E3 Ei)).
  - exact (reach_one (t_count sch n (n_dropped n) (n_invalid n) (n_objs n + 1))).
  - exact (reach_one (t_count sch n (n_dropped n) (n_invalid n) (n_objs n + 1))).
Qed.

Lemma fold_append_reach : forall sch (A : Type) (g : node -> A -> node * list effect),
  (forall m a, reach sch m (snd (g m a)) (fst (g m a))) ->
  forall l n, let r := fold_left (fun acc a => let '(m, fx) := acc in let '(m', fx') := g m a in (m', fx ++ fx')) l (n, []) in
  reach sch n (snd r) (fst r).
Proof.
  intros sch A g H l n. apply (fold_reach sch _ _ fst snd); [|apply reach_refl].
  intros [m fx] a Hs. cbn [fst snd] in *. pose proof (H m a) as G. destruct (g m a) as [m' fx']. exact (reach_trans Hs G).
Qed.

Lemma connect_path : forall sch n addrs, reach sch n (snd (connect salts n addrs)) (fst (connect salts n addrs)).
Proof.
  intros sch n addrs. unfold connect. destruct (existsb _ addrs); [apply reach_refl|].
  apply (fold_append_reach sch N (connect_sock salts)). intros m a. apply connect_sock_path.
Qed.

Lemma adopt_incl : forall addrs own, incl own (fold_left (fun own a => if memN a own then own else own ++ [a]) addrs own).
Proof.
  intros addrs own. apply (fold_left_inv _ _ (incl own)); [|apply incl_refl].
  intros s a H. destruct (memN a s); [exact H|apply incl_appl, H].
Qed.

Lemma connect_to_peers_path : forall sch ps n, reach sch n (snd (connect_to_peers salts n ps)) (fst (connect_to_peers salts n ps)).
Proof.
  intros sch ps n. unfold connect_to_peers. apply (fold_reach sch _ _ fst snd); [|apply reach_refl].
  intros [m fx] p Hs. cbn [fst snd] in Hs.
  destruct (existsb _ (map addr_of_bytes (pi_addrs p))); [exact Hs|].
  pose proof (connect_path sch m (map addr_of_bytes (pi_addrs p))) as G.
  destruct (pi_node p) as [id|].
  - destruct (list_eqb id _).
    + cbn [fst snd]. eapply reach_then; [exact Hs|]. apply reach_one, t_adopt, adopt_incl.
    + destruct (existsb _ (n_peers m)); [exact Hs|]. destruct (connect salts m _) as [m' fx']. exact (reach_trans Hs G).
  - destruct (connect salts m _) as [m' fx']. exact (reach_trans Hs G).
Qed.

Lemma update_peer_info_path : forall sch n addr info,
  reach sch n (snd (update_peer_info salts now n addr info)) (fst (update_peer_info salts now n addr info)).
Proof.
  intros sch n addr info. unfold update_peer_info. destruct (aget (n_peers n) addr) as [pd|] eqn:Ea; [|apply reach_refl].
  destruct info as [i|]; cbv zeta.
  - refine (reach_trans (fx:=[]) (reach_then (reach_one (t_refresh sch n addr pd _ Ea _)) (reach_one (t_claims sch _ addr _ _)))
              (connect_to_peers_path sch _ _)); [reflexivity|].
    unfold ahas. cbn [upd n_peers]. rewrite aget_aset_same. reflexivity.
  - refine (reach_one (t_refresh sch n addr pd _ Ea _)). reflexivity.
Qed.

Lemma remove_peer_path : forall sch n addr, reach sch n [] (remove_peer now n addr).
Proof. intros. unfold remove_peer. destruct (aget (n_peers n) addr); [apply reach_one, t_remove|apply reach_refl]. Qed.

Lemma stored_ok : forall pl res, is_initialized res = false -> stored pl (Ok res).
Proof. intros [[]|pd] res H; try exact H; exact I. Qed.

(* add_new_peer, for the object that has just completed at src and was put back into the pending map *)
Lemma add_new_peer_path : forall sch n src w fresh pc pc' res reply info,
  ev = ENet src w -> answerer salts n src w = Some (InPending fresh, pc) ->
  pc_handle payload_ok pc w = (pc', Ok res, reply) -> is_initialized res = true ->
  let r := add_new_peer salts now (put salts n src (InPending fresh) pc') src info in
  reach sch n (reply_fx src (Ok res) reply ++ snd r) (fst r).
Proof.
  intros sch n src w fresh pc pc' res reply info He Ha Hh Hi r. subst r. unfold add_new_peer.
  cbn [put upd n_pending]. rewrite aget_aset_same. cbn [n_peers n_own n_table]. rewrite adel_aset.
  eapply reach_trans; [|apply update_peer_info_path].
  apply reach_one. refine (t_promote sch n src w fresh pc pc' res reply _ He Ha Hh Hi _). reflexivity.
Qed.

Lemma handle_result_path : forall sch n src w pl pc pc' res reply,
  ev = ENet src w -> answerer salts n src w = Some (pl, pc) -> pc_handle payload_ok pc w = (pc', Ok res, reply) ->
  let r := handle_result salts now (put salts n src pl pc') src res reply in reach sch n (snd r) (fst r).
Proof.
  intros sch n src w pl pc pc' res reply He Ha Hh r. subst r.
  assert (St : is_initialized res = false -> reach sch n (reply_fx src (Ok res) reply) (put salts n src pl pc'))
    by (intros Hi; exact (reach_one (t_store sch n src w pl pc pc' (Ok res) reply He Ha Hh (stored_ok pl res Hi)))).
  assert (Inv : forall m, reach sch m [] (with_invalid m)) by (intros m; exact (reach_one (t_count sch m _ _ _))).
  destruct res as [ty body|p|p| |]; cbn [handle_result].
  - specialize (St eq_refl). cbn [reply_fx] in St.
    destruct (ty =? MESSAGE_TYPE_DATA) eqn:E0.
    { apply N.eqb_eq in E0. subst ty.
      destruct (parse_frame (n_cfg (put salts n src pl pc')) body) as [[s d]|e|s] eqn:Ep; [|exact St|exact St].
      rewrite (proj1 (put_rest salts n src pl pc')) in Ep. exact (reach_one (t_data sch n src w pl pc pc' reply body s d He Ha Hh Ep)). }
    destruct (ty =? MESSAGE_TYPE_NODE_INFO).
    { destruct (ni_decode body) as [info|e|s]; [exact (reach_trans St (update_peer_info_path sch _ src (Some info)))| |];
        exact (reach_then St (Inv _)). }
    destruct (ty =? MESSAGE_TYPE_KEEPALIVE); [exact (reach_trans St (update_peer_info_path sch _ src None))|].
    destruct (ty =? MESSAGE_TYPE_CLOSE); [exact (reach_then St (remove_peer_path sch _ src))|exact (reach_then St (Inv _))].
  - pose proof (completion_payload _ _ _ _ _ _ p Hh (or_introl eq_refl)) as Hok. unfold payload_ok in Hok.
    destruct (ni_decode p) as [info|e|s]; try discriminate Hok.
    destruct pl as [fresh|pd].
    + exact (add_new_peer_path sch n src w fresh pc pc' _ reply info He Ha Hh eq_refl).
    + pose proof (answerer_object _ _ _ _ _ _ Ha) as (_ & _ & Hq). specialize (Hq (completion_wire _ _ _ _ _ _ Hh eq_refl)).
      unfold add_new_peer. cbn [put upd n_pending]. rewrite Hq.
      exact (reach_one (t_store sch n src w _ pc pc' _ reply He Ha Hh I)).
  - pose proof (completion_payload _ _ _ _ _ _ p Hh (or_intror eq_refl)) as Hok. unfold payload_ok in Hok.
    destruct (ni_decode p) as [info|e|s]; try discriminate Hok.
    destruct pl as [fresh|pd].
    + pose proof (add_new_peer_path sch n src w fresh pc pc' _ reply info He Ha Hh eq_refl) as G. cbv zeta in G.
      destruct (add_new_peer salts now _ src info) as [n1 fx]. cbn [fst snd] in *.
      eapply reach_incl; [exact G|]. intros x Hx. apply in_app_or in Hx. apply in_or_app. tauto.
    + pose proof (answerer_object _ _ _ _ _ _ Ha) as (_ & _ & Hq). specialize (Hq (completion_wire _ _ _ _ _ _ Hh eq_refl)).
      unfold add_new_peer. cbn [put upd n_pending]. rewrite Hq. cbn [fst snd app].
      exact (reach_one (t_store sch n src w _ pc pc' _ reply He Ha Hh I)).
  - exact (St eq_refl).
  - exact (St eq_refl).
Qed.

Lemma handle_net_path : forall sch n src w, ev = ENet src w ->
  reach sch n (snd (handle_net salts now n src w)) (fst (handle_net salts now n src w)).
Proof.
  intros sch n src w He. rewrite handle_net_eq.
  assert (Inv : forall m, reach sch m [] (with_invalid m)) by (intros m; exact (reach_one (t_count sch m _ _ _))).
  destruct (answerer salts n src w) as [[pl pc]|] eqn:Ha; [|apply Inv].
  destruct (pc_handle payload_ok pc w) as [[pc' r] reply] eqn:Hh.
  assert (St : stored pl r -> reach sch n [] (put salts n src pl pc')).
  { intros S. eapply reach_incl; [exact (reach_one (t_store sch n src w pl pc pc' r reply He Ha Hh S))|apply incl_nil_l]. }
  assert (New : reach sch n [] (origin salts n src true)) by exact (reach_one (t_count sch n _ _ (n_objs n + 1))).
  destruct r as [res|c|s]; [exact (handle_result_path sch n src w pl pc pc' res reply He Ha Hh)| |]; cbn [fst snd];
    destruct pl as [[]|pd]; cbn [rejected].
  - exact (reach_then New (Inv _)).
  - destruct (c =? 2) eqn:Ec.
    + cbn [put origin with_invalid upd n_peers n_pending n_own n_table]. rewrite adel_aset.
      exact (reach_then (reach_one (t_drop sch n src)) (reach_one (t_count sch _ (n_dropped n) (n_invalid n + 1) (n_objs n)))).
    + apply N.eqb_neq in Ec. exact (reach_then (St Ec) (Inv _)).
  - exact (reach_then (St I) (Inv _)).
  - exact New.
  - exact (St I).
  - exact (St I).
Qed.

Lemma send_data_path : forall sch n addr ty body, reach sch n (snd (send_data n addr ty body)) (fst (send_data n addr ty body)).
Proof.
  intros sch n addr ty body. unfold send_data, pc_send. destruct (aget (n_peers n) addr) as [pd|] eqn:Ea; [|apply reach_refl].
  destruct (pc_seal (p_crypto pd) ty body) as [pc' [w|e|s]] eqn:Es; [|apply reach_refl|apply reach_refl].
  exact (reach_one (t_seal sch n addr pd ty body pc' w Ea Es)).
Qed.

Lemma broadcast_path : forall sch n ty body, reach sch n (snd (broadcast n ty body)) (fst (broadcast n ty body)).
Proof.
  intros sch n ty body. unfold broadcast.
  apply (fold_append_reach sch _ (fun m (e : N * peer_data) => send_data m (fst e) ty body)). intros m e. apply send_data_path.
Qed.

Lemma handle_iface_path : forall sch n frame, reach sch n (snd (handle_iface salts now n frame)) (fst (handle_iface salts now n frame)).
Proof.
  intros sch n frame. unfold handle_iface. destruct (parse_frame (n_cfg n) frame) as [[s dst]|e|s]; [|apply reach_refl|apply reach_refl].
  pose proof (reach_one (t_lookup sch n dst)) as L. destruct (table_lookup (n_table n) now dst) as [r t']. cbn [snd] in L.
  destruct r as [addr|]; [exact (reach_trans L (send_data_path sch _ addr _ _))|].
  destruct (c_broadcast (n_cfg n)); [exact (reach_trans L (broadcast_path sch _ _ _))|].
  exact (reach_then L (reach_one (t_count sch _ _ _ _))).
Qed.

Lemma tick_pending_path : forall sch n, reach sch n (snd (fst (tick_pending n))) (fst (fst (tick_pending n))).
Proof.
  intros sch n. unfold tick_pending. apply (fold_reach sch _ _ (fun s => fst (fst s)) (fun s => snd (fst s))); [|apply reach_refl].
  intros [[m fx] del] e Hs. cbn [fst snd] in Hs. destruct (aget (n_pending m) (fst e)) as [pc|] eqn:Ea; [|exact Hs].
  pose proof (fun pc' r w E => reach_trans Hs (reach_one (t_tick_pending sch m (fst e) pc pc' r w Ea E))) as T.
  destruct (pc_every_second pc) as [[pc' r] w]. specialize (T pc' r w eq_refl).
  destruct r as [[ | | | | ]|c|s]; cbn [fst snd tick_fx] in *; try rewrite app_nil_r in T; exact T.
Qed.

Lemma tick_peers_path : forall sch n, reach sch n (snd (fst (tick_peers n))) (fst (fst (tick_peers n))).
Proof.
  intros sch n. unfold tick_peers. apply (fold_reach sch _ _ (fun s => fst (fst s)) (fun s => snd (fst s))); [|apply reach_refl].
  intros [[m fx] del] e Hs. cbn [fst snd] in Hs. destruct (aget (n_peers m) (fst e)) as [pd|] eqn:Ea; [|exact Hs].
  pose proof (fun pc' r w E => reach_trans Hs (reach_one (t_tick_peer sch m (fst e) pd pc' r w Ea E))) as T.
  destruct (pc_every_second (p_crypto pd)) as [[pc' r] w]. specialize (T pc' r w eq_refl).
  destruct r as [[ | | | | ]|c|s]; cbn [fst snd tick_fx] in *; try rewrite app_nil_r in T; exact T.
Qed.

(* removal of a peer with its routes, then a fresh dial: what time-out and a failed connection have in common *)
Lemma drop_and_redial_path : forall sch m addr,
  let r := connect_sock salts (upd m (adel (n_peers m) addr) (n_pending m) (n_own m) (table_remove_claims (n_table m) now addr)) addr in
  reach sch m (snd r) (fst r).
Proof. intros sch m addr. exact (reach_trans (fx:=[]) (reach_one (t_remove sch m addr)) (connect_sock_path sch _ addr)). Qed.

Lemma crypto_housekeep_path : forall sch n, reach sch n (snd (crypto_housekeep salts now n)) (fst (crypto_housekeep salts now n)).
Proof.
  intros sch n. unfold crypto_housekeep.
  pose proof (tick_pending_path sch n) as H1. destruct (tick_pending n) as [[n1 fx1] del1]. cbn [fst snd] in H1.
  pose proof (tick_peers_path sch n1) as H2. destruct (tick_peers n1) as [[n2 fx2] del2]. cbn [fst snd] in H2.
  apply (fold_reach sch _ _ fst snd).
  - intros [m fx] a Hs. cbn [fst snd] in Hs. destruct (ahas (n_peers m) a); [|exact Hs].
    pose proof (drop_and_redial_path sch m a) as G. cbv zeta in G. destruct (connect_sock salts _ a) as [m3 fx']. exact (reach_trans Hs G).
  - cbn [fst snd]. eapply reach_then; [exact (reach_trans H1 H2)|].
    apply (fold_reach sch node N (fun m => m) (fun _ => [])); [|apply reach_refl].
    intros m a Hs. exact (reach_then Hs (reach_one (t_drop sch m a))).
Qed.

Lemma expire_phase_path : forall sch n, reach sch n (snd (expire_phase salts now n)) (fst (expire_phase salts now n)).
Proof.
  intros sch n. unfold expire_phase. apply (fold_reach sch _ _ fst snd); [|apply reach_refl].
  intros [m fx] a Hs. cbn [fst snd] in Hs.
  pose proof (drop_and_redial_path sch m a) as G. cbv zeta in G. destruct (connect_sock salts _ a) as [m2 fx']. exact (reach_trans Hs G).
Qed.

Lemma reconnect_step_path : forall n, reach true n (snd (reconnect_step salts now n)) (fst (reconnect_step salts now n)).
Proof.
  intros n. unfold reconnect_step.
  match goal with |- context [fold_left ?f (n_reconnect n) (n, [])] => assert (G : reach true n (snd (fold_left f (n_reconnect n) (n, []))) (fst (fold_left f (n_reconnect n) (n, [])))) end.
  { apply (fold_reach true _ _ fst snd); [|apply reach_refl]. intros [m fx] e Hs. cbn [fst snd] in Hs.
    destruct (now <? rc_next e)%Z; [exact Hs|].
    pose proof (connect_path true m (rc_addrs e)) as C. destruct (connect salts m (rc_addrs e)) as [m' fx']. exact (reach_trans Hs C). }
  destruct (fold_left _ (n_reconnect n) (n, [])) as [n1 fx]. cbn [fst snd] in *.
  exact (reach_then G (reach_one (t_sched n1 _ _ _))).
Qed.

Lemma housekeep_path : forall n, reach true n (snd (housekeep salts now n)) (fst (housekeep salts now n)).
Proof.
  intros n. unfold housekeep. fold (expire_phase salts now n).
  pose proof (expire_phase_path true n) as H1. destruct (expire_phase salts now n) as [n1 fx1]. cbn [fst snd] in H1.
  pose proof (reach_then H1 (reach_one (t_sweep true n1))) as H2.
  pose proof (crypto_housekeep_path true (upd n1 (n_peers n1) (n_pending n1) (n_own n1) (table_housekeep (n_table n1) now))) as H3.
  destruct (crypto_housekeep salts now _) as [n3 fx3]. cbn [fst snd] in H3.
  pose proof (reach_trans H2 H3) as H23. clear H1 H2 H3.
  assert (H4 : let r := if (n_next_peers n3 <=? now)%Z then
      let '(m, fx) := broadcast n3 MESSAGE_TYPE_NODE_INFO (ni_encode (create_node_info n3)) in
      let iv := announce_interval (update_freq (c_peer_timeout (n_cfg m)) (c_keepalive (n_cfg m)))
                                  (map (fun e => p_peer_timeout (snd e)) (n_peers m)) in
      (with_sched m (now + Z.of_N iv)%Z (n_next_own_reset m) (n_reconnect m), fx)
    else (n3, []) in reach true n3 (snd r) (fst r)).
  { destruct (n_next_peers n3 <=? now)%Z; [|apply reach_refl].
    pose proof (broadcast_path true n3 MESSAGE_TYPE_NODE_INFO (ni_encode (create_node_info n3))) as B.
    destruct (broadcast n3 _ _) as [m fx]. exact (reach_then B (reach_one (t_sched m _ _ _))). }
  cbv zeta in H4. destruct (if (n_next_peers n3 <=? now)%Z then _ else _) as [n4 fx4]. cbn [fst snd] in H4.
  pose proof (reconnect_step_path n4) as H5. destruct (reconnect_step salts now n4) as [n5 fx5]. cbn [fst snd] in *.
  pose proof (reach_trans H23 (reach_trans H4 H5)) as H. rewrite <- app_assoc in H.
  destruct (negb (c_hkfault (n_cfg n5)) && (n_next_own_reset n5 <=? now)%Z); [|exact H].
  exact (reach_then H (reach_then (reach_one (t_own_reset true n5)) (reach_one (t_sched _ _ _ _)))).
Qed.

Theorem step_path : forall n, reach true n (snd (step salts now n ev)) (fst (step salts now n ev)).
Proof.
  intros n. destruct ev as [src w|f| |a|addrs] eqn:He; cbn [step].
  - apply handle_net_path. exact He.
  - apply handle_iface_path.
  - apply housekeep_path.
  - apply connect_path.
  - apply reach_one, t_sched.
Qed.

Corollary step_keeps_fx : forall (P : node -> Prop) (E : effect -> Prop),
  (forall n fx n', trans true n fx n' -> P n -> P n' /\ Forall E fx) ->
  forall n, P n -> P (fst (step salts now n ev)) /\ Forall E (snd (step salts now n ev)).
Proof. intros P E H n. exact (reach_inv true P E H _ _ _ (step_path n)). Qed.

Corollary step_keeps : forall P : node -> Prop, (forall n fx n', trans true n fx n' -> P n -> P n') ->
  forall n, P n -> P (fst (step salts now n ev)).
Proof. intros P H n. exact (reach_inv0 true P H _ _ _ (step_path n)). Qed.
End Steps.
