(* CryptoCore (C02, C03): what decrypt accepts and what it does to the window, tick and rotate slot by slot, the round trip between
   two cores, datagrams that never open; and the slot-level facts of the four operations that the layers above share. *)
From VpnModel Require Import Base BaseProofs Nonce Replay Core.
From Coq Require Import ZifyBool.

(* ideal AEAD: only the genuine seal opens, and only under its own key and nonce *)
Lemma aead_open_iff : forall k n c p, aead_open k n c = Some p <-> c = Seal k n p.
Proof.
  intros k n c p. destruct c as [k' n' p'|]; simpl; split; intros H; try discriminate.
  - destruct (k =? k') eqn:Ek; simpl in H; [|discriminate].
    destruct (list_eqb n n') eqn:En; [|discriminate].
    apply N.eqb_eq in Ek. apply list_eqb_eq in En. inversion H. subst. reflexivity.
  - inversion H; subst. rewrite N.eqb_refl, list_eqb_refl. reflexivity.
Qed.

Lemma nth_set_nth_same : forall (A:Type) (l : list A) i x d, (i < length l)%nat -> nth i (set_nth i x l) d = x.
Proof.
  induction l as [|h t IH]; intros i x d Hi; simpl in Hi; [lia|].
  destruct i; simpl; [reflexivity|]. apply IH. lia.
Qed.

Lemma nth_set_nth_other : forall (A:Type) (l : list A) i j x d, i <> j -> nth j (set_nth i x l) d = nth j l d.
Proof.
  induction l as [|h t IH]; intros i j x d Hij; simpl; [destruct i; reflexivity|].
  destruct i; destruct j; simpl; try reflexivity; try lia. apply IH. lia.
Qed.

Lemma length_set_nth : forall (A:Type) (l : list A) i x, length (set_nth i x l) = length l.
Proof. induction l as [|h t IH]; intros i x; simpl; [destruct i; reflexivity|]. destruct i; simpl; [reflexivity|]. rewrite IH. reflexivity. Qed.

Definition wf_core (c : core) : Prop := length (slots c) = 4%nat /\ current c < 4.

Lemma get_set_same : forall c i s, wf_core c -> i < 4 -> get_slot (set_slot c i s) i = s.
Proof. intros c i s [Hl _] Hi. unfold get_slot, set_slot. cbn [slots]. apply nth_set_nth_same. rewrite Hl. lia. Qed.

Lemma get_set_other : forall c i j s, i <> j -> get_slot (set_slot c i s) j = get_slot c j.
Proof. intros c i j s Hne. unfold get_slot, set_slot. cbn [slots]. apply nth_set_nth_other. lia. Qed.

Lemma wf_set : forall c i s, wf_core c -> wf_core (set_slot c i s).
Proof. intros c i s [Hl Hc]. split; [cbn [set_slot slots]; rewrite length_set_nth; exact Hl|exact Hc]. Qed.

Lemma core_new_wf : forall k d hf r0 r1 r2 r3, wf_core (core_new k d hf r0 r1 r2 r3).
Proof. intros. split; [reflexivity|cbn; lia]. Qed.

Lemma wf_encrypt : forall c p, wf_core c -> wf_core (fst (core_encrypt c p)).
Proof. intros c p H. apply wf_set, H. Qed.

Lemma wf_tick : forall c, wf_core c -> wf_core (core_tick c).
Proof. intros c [Hl Hc]. unfold wf_core, core_tick. cbn [slots current]. rewrite map_length. split; assumption. Qed.

Lemma wf_rotate : forall c k id use r, wf_core c -> wf_core (core_rotate c k id use r).
Proof.
  intros c k id use r [Hl Hc]. unfold wf_core, core_rotate, set_slot. cbn [slots current]. rewrite length_set_nth.
  split; [exact Hl|]. destruct use; [lia|exact Hc].
Qed.

Lemma decrypt_opens : forall c keyid ctr7 j p, keyid < 4 ->
  let s := get_slot c keyid in
  let n := nonce_rebuild (half c) ctr7 in
  accepts (s_win s) (be_val n) = true ->
  core_decrypt c (DG keyid ctr7 (Seal (s_key s) n p) j) =
  (set_slot c keyid {| s_key := s_key s; s_send := s_send s; s_win := snd (deliver (s_win s) (be_val n)) |}, Ok p).
Proof.
  intros c keyid ctr7 j p Hk s n Ha. unfold core_decrypt, accepts in *. fold s n.
  assert ((4 <=? keyid) = false) as -> by lia. apply negb_true_iff in Ha. rewrite Ha.
  rewrite (proj2 (aead_open_iff (s_key s) n _ p) eq_refl). reflexivity.
Qed.

Lemma decrypt_cases : forall c d,
  (exists e, core_decrypt c d = (c, Err e)) \/
  (exists keyid ctr7 p j, keyid < 4 /\
     d = DG keyid ctr7 (Seal (s_key (get_slot c keyid)) (nonce_rebuild (half c) ctr7) p) j /\
     accepts (s_win (get_slot c keyid)) (be_val (nonce_rebuild (half c) ctr7)) = true).
Proof.
  intros c d. destruct d as [keyid ctr7 x j|n]; [|left; eexists; reflexivity]. unfold core_decrypt.
  destruct (4 <=? keyid) eqn:Ek; [left; eexists; reflexivity|].
  destruct (be_val (nonce_rebuild (half c) ctr7) <? minn (s_win (get_slot c keyid))) eqn:Ew; [left; eexists; reflexivity|].
  destruct (aead_open _ _ x) as [p|] eqn:Eo; [|left; eexists; reflexivity].
  apply aead_open_iff in Eo. right. exists keyid, ctr7, p, j. unfold accepts. rewrite Ew, Eo. split; [lia|split; reflexivity].
Qed.

Theorem decrypt_ok_iff : forall c keyid ctr7 x j p,
  snd (core_decrypt c (DG keyid ctr7 x j)) = Ok p <->
  (keyid < 4 /\ x = Seal (s_key (get_slot c keyid)) (nonce_rebuild (half c) ctr7) p /\
   accepts (s_win (get_slot c keyid)) (be_val (nonce_rebuild (half c) ctr7)) = true).
Proof.
  intros c keyid ctr7 x j p. split.
  - destruct (decrypt_cases c (DG keyid ctr7 x j)) as [[e ->]|(k & ctr & q & j' & Hk & E & Ha)]; [discriminate|].
    injection E as -> -> -> _. rewrite decrypt_opens by assumption. intros H. injection H as ->. auto.
  - intros (Hk & -> & Ha). rewrite decrypt_opens by assumption. reflexivity.
Qed.

Theorem decrypt_fail_unchanged : forall c d, is_ok (snd (core_decrypt c d)) = false -> fst (core_decrypt c d) = c.
Proof.
  intros c d. destruct (decrypt_cases c d) as [[e ->]|(keyid & ctr7 & p & j & Hk & -> & Ha)]; [reflexivity|].
  rewrite decrypt_opens by assumption. discriminate.
Qed.

Theorem decrypt_never_panics : forall c d, is_panic (snd (core_decrypt c d)) = false.
Proof.
  intros c d. destruct (decrypt_cases c d) as [[e ->]|(keyid & ctr7 & p & j & Hk & -> & Ha)]; [reflexivity|].
  rewrite decrypt_opens by assumption. reflexivity.
Qed.

Theorem decrypt_ok_window : forall c keyid ctr7 x j p, wf_core c ->
  snd (core_decrypt c (DG keyid ctr7 x j)) = Ok p ->
  let c' := fst (core_decrypt c (DG keyid ctr7 x j)) in
  s_win (get_slot c' keyid) = snd (deliver (s_win (get_slot c keyid)) (be_val (nonce_rebuild (half c) ctr7))) /\
  (forall i, i <> keyid -> i < 4 -> get_slot c' i = get_slot c i) /\
  s_key (get_slot c' keyid) = s_key (get_slot c keyid) /\ s_send (get_slot c' keyid) = s_send (get_slot c keyid) /\
  current c' = current c /\ half c' = half c.
Proof.
  intros c keyid ctr7 x j p Hwf H. apply decrypt_ok_iff in H. destruct H as (Hk & -> & Ha).
  rewrite decrypt_opens by assumption. cbn [fst]. rewrite get_set_same by assumption. cbn [s_win s_key s_send].
  repeat split. intros i Hne _. apply get_set_other. congruence.
Qed.

(* every_second: one window tick on every slot, nothing else *)
Theorem tick_all_slots : forall c i,
  get_slot (core_tick c) i =
  (if (N.to_nat i <? length (slots c))%nat
   then {| s_key := s_key (get_slot c i); s_send := s_send (get_slot c i); s_win := tick (s_win (get_slot c i)) |}
   else get_slot c i).
Proof.
  intros c i. unfold core_tick, get_slot. cbn [slots].
  destruct (N.to_nat i <? length (slots c))%nat eqn:E.
  - apply Nat.ltb_lt in E.
    set (f := fun s => {| s_key := s_key s; s_send := s_send s; s_win := tick (s_win s) |}).
    set (d := {| s_key := 0; s_send := zeros 12; s_win := win0 |}).
    rewrite (nth_indep (map f (slots c)) d (f d)) by (rewrite map_length; exact E).
    rewrite map_nth. reflexivity.
  - apply Nat.ltb_ge in E. rewrite !nth_overflow; [reflexivity|exact E|rewrite map_length; exact E].
Qed.

(* rotate_key: the addressed slot gets a fresh window and counter, other slots untouched *)
Theorem rotate_fresh_window : forall c k id use r, wf_core c ->
  get_slot (core_rotate c k id use r) (id mod 4) = new_slot k (half c) r /\
  (forall i, i <> id mod 4 -> get_slot (core_rotate c k id use r) i = get_slot c i) /\
  current (core_rotate c k id use r) = (if use then id mod 4 else current c).
Proof.
  intros c k id use r [Hl Hc]. unfold core_rotate, get_slot, set_slot. cbn [slots current half].
  assert (Hi : (N.to_nat (id mod 4) < length (slots c))%nat) by lia.
  repeat split.
  - apply nth_set_nth_same. exact Hi.
  - intros i Hne. apply nth_set_nth_other. lia.
Qed.

(* C02-T1: what one end seals the other end opens, byte-identical, whenever the receiver holds the
   sender's current key under that key id, reconstructs the nonce that was used (opposite halves,
   counter within the 56 transmitted bits) and its window admits the counter *)
Theorem core_roundtrip : forall c1 c2 p, wf_core c1 -> wf_core c2 ->
  s_key (get_slot c2 (current c1)) = s_key (get_slot c1 (current c1)) ->
  let n' := nonce_increment (s_send (get_slot c1 (current c1))) in
  nonce_rebuild (half c2) (nonce_wire n') = n' ->
  accepts (s_win (get_slot c2 (current c1))) (be_val n') = true ->
  snd (core_decrypt c2 (snd (core_encrypt c1 p))) = Ok p.
Proof.
  intros c1 c2 p H1 H2 Hk n' Hn Ha. unfold core_encrypt. cbn [snd].
  apply decrypt_ok_iff. destruct H1 as [_ Hc]. split; [exact Hc|]. fold n'. rewrite Hn, Hk. split; [reflexivity|exact Ha].
Qed.

(* C02-T2 corollaries: reflected, foreign, altered and truncated datagrams never open *)
Corollary reflected_never_opens : forall c p,
  nth_b 0%nat (nonce_increment (s_send (get_slot c (current c)))) = (if half c then 128 else 0) ->
  is_ok (snd (core_decrypt (fst (core_encrypt c p)) (snd (core_encrypt c p)))) = false.
Proof.
  intros c p Hb. destruct (snd (core_decrypt (fst (core_encrypt c p)) (snd (core_encrypt c p)))) as [q|e|s] eqn:E; try reflexivity.
  exfalso. unfold core_encrypt in E. cbn [fst snd] in E.
  apply decrypt_ok_iff in E. destruct E as (_ & Hx & _). inversion Hx as [[Hk Hn]]. cbn [half set_slot] in Hn.
  set (n' := nonce_increment (s_send (get_slot c (current c)))) in *.
  assert (Hh : nth_b 0%nat (nonce_rebuild (half c) (nonce_wire n')) = (if half c then 0 else 128)) by (unfold nonce_rebuild; destruct (half c); reflexivity).
  rewrite <- Hn in Hh. rewrite Hh in Hb. destruct (half c); discriminate.
Qed.

Corollary foreign_key_never_opens : forall c keyid ctr7 k nn p j,
  k <> s_key (get_slot c keyid) -> is_ok (snd (core_decrypt c (DG keyid ctr7 (Seal k nn p) j))) = false.
Proof.
  intros c keyid ctr7 k nn p j Hne.
  destruct (snd (core_decrypt c (DG keyid ctr7 (Seal k nn p) j))) as [q|e|s] eqn:E; try reflexivity.
  apply decrypt_ok_iff in E. destruct E as (_ & Hx & _). inversion Hx. congruence.
Qed.

Lemma junk_never_opens : forall c keyid ctr7 j, is_ok (snd (core_decrypt c (DG keyid ctr7 Junk j))) = false.
Proof.
  intros c keyid ctr7 j. destruct (decrypt_cases c (DG keyid ctr7 Junk j)) as [[e ->]|(k & ctr & p & j' & _ & E & _)]; [reflexivity|discriminate E].
Qed.

Corollary altered_never_opens : forall c d pos bit, (8 <= pos)%nat ->
  is_ok (snd (core_decrypt c (dgram_flip d pos bit))) = false.
Proof.
  intros c d pos bit Hp. destruct d as [keyid ctr7 x j|len]; [|reflexivity].
  unfold dgram_flip. destruct pos as [|q]; [lia|]. assert (Nat.ltb q 7 = false) as -> by (apply Nat.ltb_ge; lia).
  apply junk_never_opens.
Qed.

Corollary truncated_never_opens : forall c d len, (len < dgram_len d)%nat -> is_ok (snd (core_decrypt c (dgram_truncate d len))) = false.
Proof.
  intros c d len H. unfold dgram_truncate. assert (Nat.leb (dgram_len d) len = false) as -> by (apply Nat.leb_gt; exact H).
  destruct (Nat.ltb len 24); [reflexivity|]. destruct d as [keyid ctr7 x j|n]; [apply junk_never_opens|reflexivity].
Qed.

Lemma enc_preserves : forall c p, wf_core c ->
  let c' := fst (core_encrypt c p) in
  wf_core c' /\ current c' = current c /\ half c' = half c /\
  (forall i, s_key (get_slot c' i) = s_key (get_slot c i) /\ s_win (get_slot c' i) = s_win (get_slot c i)).
Proof.
  intros c p Hwf. cbn zeta. split; [apply wf_encrypt; exact Hwf|]. split; [reflexivity|]. split; [reflexivity|].
  intros i. unfold core_encrypt. cbn [fst]. destruct (N.eq_dec (current c) i) as [<-|Hne].
  - rewrite get_set_same by (exact Hwf || apply Hwf). split; reflexivity.
  - rewrite get_set_other by exact Hne. split; reflexivity.
Qed.

Lemma dec_preserves : forall c d, wf_core c ->
  let c' := fst (core_decrypt c d) in
  wf_core c' /\ current c' = current c /\ half c' = half c /\
  (forall i, s_key (get_slot c' i) = s_key (get_slot c i) /\ s_send (get_slot c' i) = s_send (get_slot c i)).
Proof.
  intros c d Hwf. cbn zeta. destruct (decrypt_cases c d) as [[e ->]|(keyid & ctr7 & p & j & Hk & -> & Ha)].
  - split; [exact Hwf|]. split; [reflexivity|]. split; [reflexivity|]. intros; split; reflexivity.
  - rewrite decrypt_opens by assumption. split; [apply wf_set; exact Hwf|]. split; [reflexivity|]. split; [reflexivity|].
    intros i. cbn [fst]. destruct (N.eq_dec keyid i) as [<-|Hne].
    + rewrite get_set_same by assumption. split; reflexivity.
    + rewrite get_set_other by exact Hne. split; reflexivity.
Qed.

Lemma wf_decrypt : forall c d, wf_core c -> wf_core (fst (core_decrypt c d)).
Proof. intros c d H. apply (dec_preserves c d H).
Qed.
