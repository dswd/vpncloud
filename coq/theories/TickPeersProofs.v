(* C03 at node level: "the tick is driven once per second for every peer".  The peer and pending maps of every reachable node state
   hold each address at most once (ND), and one run of tick_peers applies PeerCrypto::every_second exactly once to every peer. *)
From VpnModel Require Import Base BaseProofs PeerCrypto Node Answerer NodeProofs NodeSteps NextHopProofs.

Definition keys {A} (l : list (N * A)) : list N := map fst l.

Lemma in_keys_aset : forall (A : Type) (l : list (N * A)) k v x, In x (keys (aset l k v)) -> x = k \/ In x (keys l).
Proof.
  intros A l k v x. induction l as [|[k' v'] t IH]; cbn [aset keys map fst].
  - intros [H|[]]. left; symmetry; exact H.
  - destruct (k =? k') eqn:E; cbn [map fst].
    + apply N.eqb_eq in E. subst k'. intros [H|H]; [left; symmetry; exact H|right; right; exact H].
    + intros [H|H]; [right; left; exact H|]. destruct (IH H) as [G|G]; [left; exact G|right; right; exact G].
Qed.

Lemma nodup_aset : forall (A : Type) (l : list (N * A)) k v, NoDup (keys l) -> NoDup (keys (aset l k v)).
Proof.
  intros A l k v. induction l as [|[k' v'] t IH]; cbn [aset keys map fst]; intros H.
  - constructor; [intros []|constructor].
  - inversion H as [|? ? Hnin Hnd]; subst. destruct (k =? k') eqn:E; cbn [map fst].
    + apply N.eqb_eq in E. subst k'. constructor; assumption.
    + constructor; [|apply IH; exact Hnd]. intros Hin. apply in_keys_aset in Hin. destruct Hin as [->|Hin]; [rewrite N.eqb_refl in E; discriminate|exact (Hnin Hin)].
Qed.

Lemma nodup_adel : forall (A : Type) (l : list (N * A)) k, NoDup (keys l) -> NoDup (keys (adel l k)).
Proof.
  intros A l k. unfold adel. induction l as [|[k' v'] t IH]; cbn [filter keys map fst]; intros H; [constructor|].
  inversion H as [|? ? Hnin Hnd]; subst. destruct (negb (k' =? k)); cbn [map fst]; [|apply IH; exact Hnd].
  constructor; [|apply IH; exact Hnd]. intros Hin. exact (Hnin (in_map_filter _ _ _ _ _ _ Hin)).
Qed.

Definition ND (n : node) : Prop := NoDup (keys (n_peers n)) /\ NoDup (keys (n_pending n)).

Lemma nd_eq : forall n n', n_peers n' = n_peers n -> n_pending n' = n_pending n -> ND n -> ND n'.
Proof. intros n n' Hp Hq. unfold ND. rewrite Hp, Hq. exact (fun H => H). Qed.

Lemma nd_put : forall salts n src pl pc', ND n -> ND (put salts n src pl pc').
Proof. intros salts n src [[]|pd] pc' [Hp Hq]; split; cbn; try assumption; apply nodup_aset; assumption. Qed.

(* every transition sets or deletes single entries of the two maps *)
Lemma trans_nd : forall salts now ev sch n fx n', trans salts now ev sch n fx n' -> ND n -> ND n'.
Proof.
  intros salts now ev sch n fx n' T H. pose proof H as [Hp Hq].
  destruct T; try exact H; try (apply nd_put; exact H); try (split; cbn; try assumption; (apply nodup_aset || apply nodup_adel); assumption).
  (* left, in the order of `trans`: t_data, t_promote *)
  - unfold learn. destruct (c_learning _); apply nd_put; exact H.
  - destruct fresh; split; cbn; (apply nodup_aset || apply nodup_adel); assumption.
Qed.

Lemma memN_keys : forall (A : Type) (l : list (N * A)) a, memN a (keys l) = ahas l a.
Proof.
  intros A l a. unfold ahas. induction l as [|[k x] t IH]; cbn [aget keys map fst memN existsb]; [reflexivity|].
  destruct (a =? k); [reflexivity|exact IH].
Qed.

Lemma aget_amap : forall (A : Type) (g : A -> A) (l : list (N * A)) k a,
  aget (match aget l k with Some v => aset l k (g v) | None => l end) a = if a =? k then option_map g (aget l a) else aget l a.
Proof.
  intros A g l k a. destruct (a =? k) eqn:E.
  - apply N.eqb_eq in E. subst a. destruct (aget l k) as [v|] eqn:Ek; [apply aget_aset_same|exact Ek].
  - apply N.eqb_neq in E. destruct (aget l k); [apply aget_aset_other; congruence|reflexivity].
Qed.

(* a loop over a list of entries with distinct keys, each round replacing the value at its entry's key in a map held by the state:
   the values at the listed keys have been replaced once each, the others not at all *)
Lemma fold_each : forall (S A : Type) (get : S -> list (N * A)) (g : A -> A) (f : S -> N * A -> S),
  (forall s e, get (f s e) = match aget (get s) (fst e) with Some v => aset (get s) (fst e) (g v) | None => get s end) ->
  forall l s, NoDup (keys l) -> forall a,
  aget (get (fold_left f l s)) a = if memN a (keys l) then option_map g (aget (get s) a) else aget (get s) a.
Proof.
  intros S A get g f H. induction l as [|e t IH]; intros s Hnd a; [reflexivity|]. inversion Hnd as [|? ? Hnin Hnd']; subst.
  cbn [fold_left keys map memN existsb]. rewrite IH by exact Hnd'. rewrite H, aget_amap.
  destruct (a =? fst e) eqn:E; [|reflexivity]. apply N.eqb_eq in E. subst a.
  destruct (memN (fst e) (keys t)) eqn:Em; [|reflexivity].
  unfold memN in Em. apply existsb_exists in Em. destruct Em as (x & Hx & Ex). apply N.eqb_eq in Ex. subst x. destruct (Hnin Hx).
Qed.

Definition tick_pd (pd : peer_data) : peer_data :=
  {| p_addrs := p_addrs pd; p_timeout := p_timeout pd; p_peer_timeout := p_peer_timeout pd; p_node := p_node pd;
     p_crypto := fst (fst (pc_every_second (p_crypto pd))) |}.

(* the loop body of Node.tick_peers *)
Definition tick_round (acc : node * list effect * list N) (e : N * peer_data) : node * list effect * list N :=
  let '(m, fx, del) := acc in
  let addr := fst e in
  match aget (n_peers m) addr with
  | None => (m, fx, del)
  | Some pd =>
      let '(pc', r, w) := pc_every_second (p_crypto pd) in
      let m' := upd m (aset (n_peers m) addr (with_crypto pd pc')) (n_pending m) (n_own m) (n_table m) in
      match r with
      | Err _ => (m', fx, del ++ [addr])
      | Ok MReply => (m', fx ++ match w with Some x => [XSend addr x] | None => [] end, del)
      | _ => (m', fx, del)
      end
  end.

Lemma tick_round_parts : forall s e, let m := fst (fst s) in let m' := fst (fst (tick_round s e)) in
  n_peers m' = match aget (n_peers m) (fst e) with Some pd => aset (n_peers m) (fst e) (tick_pd pd) | None => n_peers m end /\
  n_pending m' = n_pending m /\ n_table m' = n_table m.
Proof.
  intros [[m fx] del] e. unfold tick_round, tick_pd. cbn [fst]. destruct (aget (n_peers m) (fst e)) as [pd|]; [|repeat split; reflexivity].
  destruct (pc_every_second (p_crypto pd)) as [[pc' r] w]. destruct r as [[ | | | | ]|c|s]; repeat split; reflexivity.
Qed.

(* C03: one run of tick_peers = PeerCrypto::every_second applied exactly once to every peer, nothing else touched *)
Theorem tick_peers_ticks_each_once : forall n, NoDup (keys (n_peers n)) ->
  (forall a, aget (n_peers (fst (fst (tick_peers n)))) a = option_map tick_pd (aget (n_peers n) a)) /\
  n_pending (fst (fst (tick_peers n))) = n_pending n /\ n_table (fst (fst (tick_peers n))) = n_table n.
Proof.
  intros n Hnd. change (tick_peers n) with (fold_left tick_round (n_peers n) (n, [], [])).
  pose proof tick_round_parts as R. cbv zeta in R. split; [|split].
  - intros a. rewrite (fold_each _ _ (fun s => n_peers (fst (fst s))) tick_pd tick_round (fun s e => proj1 (R s e)) _ _ Hnd).
    cbn [fst]. rewrite memN_keys. unfold ahas. destruct (aget (n_peers n) a); reflexivity.
  - exact (fold_left_keeps _ _ _ (fun s => n_pending (fst (fst s))) tick_round (fun s e => proj1 (proj2 (R s e))) _ _).
  - exact (fold_left_keeps _ _ _ (fun s => n_table (fst (fst s))) tick_round (fun s e => proj2 (proj2 (R s e))) _ _).
Qed.

Theorem step_nd : forall salts now n e, ND n -> ND (fst (step salts now n e)).
Proof. intros salts now n e. apply step_keeps. apply trans_nd. Qed.

Lemma node_new_nd : forall c now, ND (node_new c now).
Proof. intros. split; constructor. Qed.

Theorem reachable_nd : forall salts c t0 evs, ND (nrun salts (node_new c t0) evs).
Proof. intros salts c t0 evs. apply nrun_inv0; [intros now e n; apply step_nd|apply node_new_nd]. Qed.

Theorem reachable_tick_peers_once : forall salts c t0 evs,
  let n := nrun salts (node_new c t0) evs in
  forall a, aget (n_peers (fst (fst (tick_peers n)))) a = option_map tick_pd (aget (n_peers n) a).
Proof. intros salts c t0 evs n. apply tick_peers_ticks_each_once. apply reachable_nd. Qed.

Theorem reachable_tick_peers_once_full : forall salts c t0 evs,
  let n := nrun salts (node_new c t0) evs in
  NoDup (map fst (n_peers n)) /\ NoDup (map fst (n_pending n)) /\
  forall a, aget (n_peers (fst (fst (tick_peers n)))) a = option_map tick_pd (aget (n_peers n) a).
Proof.
  intros salts c t0 evs n. destruct (reachable_nd salts c t0 evs) as [A B]. split; [exact A|split; [exact B|]].
  exact (reachable_tick_peers_once salts c t0 evs).
Qed.

(* non-vacuity: the reachable example state of NextHopProofs has a peer, and it is ticked *)
Lemma ex_tick_peers : map fst (n_peers (fst (fst (tick_peers ex_b)))) = [1001].
Proof. vm_compute. reflexivity. Qed.
