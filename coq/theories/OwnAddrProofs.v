(* C14, "a node never peers with itself", the address side: in every reachable state a node's own-address list contains every
   address it was configured to advertise and its socket address - the list only grows (addresses reported under the own node id
   are adopted) or is reset to exactly that configured list - and connect_sock never dials an address on the list.  So no reachable
   node ever starts a handshake with one of its configured own addresses. *)
From VpnModel Require Import Base Node NodeSteps NextHopProofs.

Definition OW (n : node) : Prop := incl (c_advertise (n_cfg n) ++ [c_addr (n_cfg n)]) (n_own n).

Lemma trans_ow : forall salts now ev sch n fx n', trans salts now ev sch n fx n' -> OW n -> OW n'.
Proof.
  intros salts now ev sch n fx n' T H. destruct T; try exact H.
  (* left, in the order of `trans`: t_adopt, t_own_reset, t_data, t_promote, t_store *)
  - exact (incl_tran H Hincl).
  - apply incl_refl.
  - unfold learn. destruct (c_learning _); destruct pl as [[]|pd]; exact H.
  - destruct fresh; exact H.
  - destruct pl as [[]|pd]; exact H.
Qed.

Lemma step_ow : forall salts now n e, OW n -> OW (fst (step salts now n e)).
Proof. intros salts now n e. apply step_keeps. apply trans_ow. Qed.

Lemma node_new_ow : forall c t0, OW (node_new c t0).
Proof. intros. unfold OW, node_new. cbn [n_cfg n_own]. apply incl_refl. Qed.

Theorem reachable_ow : forall salts c t0 evs, OW (nrun salts (node_new c t0) evs).
Proof. intros salts c t0 evs. apply nrun_inv0; [intros now e n; apply step_ow|apply node_new_ow]. Qed.

Lemma memN_in : forall a l, In a l -> memN a l = true.
Proof. intros a l H. unfold memN. apply existsb_exists. exists a. split; [exact H|apply N.eqb_refl]. Qed.

Theorem never_dials_own_address : forall salts c t0 evs a,
  let n := nrun salts (node_new c t0) evs in
  In a (c_advertise (n_cfg n) ++ [c_addr (n_cfg n)]) -> connect_sock salts n a = (n, []).
Proof.
  intros salts c t0 evs a n H. pose proof (reachable_ow salts c t0 evs) as O. fold n in O.
  unfold connect_sock. rewrite (memN_in a (n_own n) (O a H)). rewrite Bool.orb_true_r. reflexivity.
Qed.

(* non-vacuity: the example state of NextHopProofs knows its socket address 1002 *)
Lemma ex_own : In 1002 (c_advertise (n_cfg ex_b) ++ [c_addr (n_cfg ex_b)]) /\ memN 1002 (n_own ex_b) = true.
Proof. split; vm_compute; [left; reflexivity|reflexivity]. Qed.
