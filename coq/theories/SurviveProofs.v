(* C09: what can remove an established peer when a datagram arrives. *)
From VpnModel Require Import Base PeerCrypto Node Answerer TrustProofs.

Definition is_close (r : msg_result) : bool :=
  match r with MMessage ty _ => ty =? MESSAGE_TYPE_CLOSE | _ => false end.

Lemma ahas_aset_keep : forall (A:Type) (l : list (N * A)) k v a, ahas l a = true -> ahas (aset l k v) a = true.
Proof. intros. rewrite ahas_aset. rewrite H. apply Bool.orb_true_r. Qed.

Lemma handle_result_keeps : forall salts now n src r reply a, ahas (n_peers n) a = true ->
  ahas (n_peers (fst (handle_result salts now n src r reply))) a = true \/ (a = src /\ is_close r = true).
Proof.
  intros salts now n src r reply a H. destruct (handle_result_peers salts now n src r reply a) as [E|(Ea & [[_ E]|[[body ->] _]])]; [left; congruence|left; exact E|right; auto].
Qed.

(* C09: whatever datagram arrives from whatever source, an established peer stays a peer - unless the datagram opened
   (genuine seal, window admits: C03) as a CLOSE message of that very peer *)
Theorem established_peer_survives : forall salts now n src w a,
  ahas (n_peers n) a = true ->
  ahas (n_peers (fst (handle_net salts now n src w))) a = true \/
  (a = src /\ exists pc r, snd (fst (pc_handle payload_ok pc w)) = Ok r /\ is_close r = true).
Proof.
  intros salts now n src w a H. rewrite handle_net_eq.
  destruct (answerer salts n src w) as [[pl pc]|] eqn:Ha; [|left; exact H].
  destruct (pc_handle payload_ok pc w) as [[pc' r] reply] eqn:Hh.
  assert (Hput : ahas (n_peers (put salts n src pl pc')) a = true) by (rewrite (put_has _ _ _ _ _ _ _ _ Ha); exact H).
  destruct r as [res|c|s].
  - destruct (handle_result_keeps salts now _ src res reply a Hput) as [G|[Ga Gc]]; [left; exact G|].
    right. split; [exact Ga|]. exists pc, res. rewrite Hh. split; [reflexivity|exact Gc].
  - left. cbn [fst]. rewrite (proj1 (proj2 (rejected_rest salts n src pl pc' (Err c) ltac:(discriminate)))). exact Hput.
  - left. cbn [fst]. rewrite (proj1 (proj2 (rejected_rest salts n src pl pc' (Panic s) ltac:(discriminate)))). exact Hput.
Qed.
