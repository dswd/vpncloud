(* C05: the loss-free three-way handshake, for all parameters: both ends complete, with the payload the
   other offered, the same cipher, the same key under key id 0 and opposite nonce halves. *)
From VpnModel Require Import Base Nonce NonceProofs Replay Core CoreProofs Conn InitSteps InitProofs Rotation2Proofs.

Lemma start_rebuild : forall (hf : bool) r, all_bytes r -> length r = 6%nat ->
  nonce_rebuild (negb hf) (nonce_wire (nonce_increment (nonce_start hf r))) = nonce_increment (nonce_start hf r).
Proof.
  intros hf r Hb Hl. change (nonce_start hf r) with ((if hf then 128 else 0) :: [0; 0; 0; 0] ++ (0 :: r)).
  apply (rebuild_after_increment hf (0 :: r)).
  - cbn [length]. rewrite Hl. reflexivity.
  - constructor; [lia|exact Hb].
  - apply Exists_cons_hd. lia.
Qed.

Definition sends_fresh (c : core) (hf : bool) (r : bytes) : Prop :=
  wf_core c /\ current c = 0 /\ s_send (get_slot c 0) = nonce_start hf r.
Definition recv_fresh (c : core) (hf : bool) : Prop :=
  wf_core c /\ half c = hf /\ minn (s_win (get_slot c 0)) = 0.

Lemma fresh_roundtrip : forall c1 c2 hf r p, all_bytes r -> length r = 6%nat ->
  sends_fresh c1 hf r -> recv_fresh c2 (negb hf) -> s_key (get_slot c2 0) = s_key (get_slot c1 0) ->
  snd (core_decrypt c2 (snd (core_encrypt c1 p))) = Ok p.
Proof.
  intros c1 c2 hf r p Hb Hl (W1 & C1 & S1) (W2 & H2 & M2) Hk.
  apply core_roundtrip; try assumption; rewrite C1.
  - exact Hk.
  - rewrite S1, H2. apply start_rebuild; assumption.
  - unfold accepts. rewrite M2. destruct (be_val _ <? 0) eqn:E; [lia|reflexivity].
Qed.

Lemma fresh_exchange : forall k dA dB hA hB rA rB pA pB,
  all_bytes rA /\ length rA = 6%nat -> all_bytes rB /\ length rB = 6%nat -> hA = negb hB ->
  let cB := core_encrypt (core_new k dB hB rB rB rB rB) pB in
  let cA := core_decrypt (core_new k dA hA rA rA rA rA) (snd cB) in
  let cA' := core_encrypt (fst cA) pA in
  let cB' := core_decrypt (fst cB) (snd cA') in
  snd cA = Ok pB /\ snd cB' = Ok pA /\
  wf_core (fst cA') /\ wf_core (fst cB') /\ current (fst cA') = 0 /\ current (fst cB') = 0 /\
  s_key (get_slot (fst cA') 0) = s_key (get_slot (fst cB') 0) /\ half (fst cA') = negb (half (fst cB')).
Proof.
  intros k dA dB hA hB rA rB pA pB HrA HrB Hh.
  set (cA0 := core_new k dA hA rA rA rA rA). set (cB0 := core_new k dB hB rB rB rB rB). intros cB cA cA' cB'.
  destruct (enc_preserves cB0 pB (core_new_wf _ _ _ _ _ _ _)) as (WB1 & CB1 & HB1 & KB1).
  destruct (dec_preserves cA0 (snd cB) (core_new_wf _ _ _ _ _ _ _)) as (WA1 & CA1 & HA1 & KA1).
  destruct (enc_preserves (fst cA) pA WA1) as (WA2 & CA2 & HA2 & KA2).
  destruct (dec_preserves (fst cB) (snd cA') WB1) as (WB2 & CB2 & HB2 & KB2). subst cB cA cA' cB'.
  split; [|split].
  - apply (fresh_roundtrip cB0 cA0 hB rB pB); try apply HrB.
    + split; [apply core_new_wf|]. split; reflexivity.
    + split; [apply core_new_wf|]. split; [exact Hh|reflexivity].
    + reflexivity.
  - apply (fresh_roundtrip _ _ hA rA pA); try apply HrA.
    + split; [exact WA1|]. split; [exact CA1|]. exact (proj2 (KA1 0)).
    + split; [exact WB1|]. split; [rewrite HB1, Hh, Bool.negb_involutive; reflexivity|]. rewrite (proj2 (KB1 0)). reflexivity.
    + rewrite (proj1 (KB1 0)), (proj1 (KA1 0)). reflexivity.
  - split; [exact WA2|]. split; [exact WB2|]. split; [rewrite CA2; exact CA1|]. split; [rewrite CB2; exact CB1|]. split.
    + rewrite (proj1 (KA2 0)), (proj1 (KA1 0)), (proj1 (KB2 0)), (proj1 (KB1 0)). reflexivity.
    + rewrite HA2, HA1, HB2, HB1. exact Hh.
Qed.

Definition run3 (ok : bytes -> bool) (A B : init_state) :=
  let '(A1, ping) := init_send_ping A in
  let '(B1, rb1, pong) := handle_init ok B ping in
  match pong with
  | None => None
  | Some pong =>
      let '(A2, ra, peng) := handle_init ok A1 pong in
      match peng with
      | None => None
      | Some peng => let '(B2, rb2, _) := handle_init ok B1 peng in Some (A2, B2, rb1, ra, rb2)
      end
  end.

Section Lockstep.
  Local Arguments ecdh : simpl never.
  Local Arguments ecdh_pub : simpl never.
  Local Arguments core_encrypt : simpl never.
  Local Arguments core_decrypt : simpl never.
  Local Arguments core_new : simpl never.
  Variables (ok : bytes -> bool).
  Variables (nA sA kA fA nB sB kB fB : N) (pA pB rA rB : bytes) (tA tB : list N) (aA aB : algos).
  Hypothesis HtA : existsb (N.eqb kB) tA = true.
  Hypothesis HtB : existsb (N.eqb kA) tB = true.
  Hypothesis Hnode : nA <> nB.
  Hypothesis HokA : ok pA = true.
  Hypothesis HokB : ok pB = true.
  Hypothesis HrA : all_bytes rA /\ length rA = 6%nat.
  Hypothesis HrB : all_bytes rB /\ length rB = 6%nat.
  Variable alg : option (N * N).
  Hypothesis HselB : select_algorithm aB aA = Ok alg.
  Hypothesis HselA : select_algorithm aA aB = Ok alg.

  Definition A0 := init_new nA sA pA kA tA aA fA rA.
  Definition B0 := init_new nB sB pB kB tB aB fB rB.

  Theorem lockstep_agreement_sec : exists A2 B2,
    run3 ok A0 B0 = Some (A2, B2, Ok IContinue, Ok (ISuccess pB true), Ok (ISuccess pA false)) /\
    i_selected A2 = option_map fst alg /\ i_selected B2 = option_map fst alg /\
    i_stage A2 = WAITING_TO_CLOSE /\ i_stage B2 = CLOSING /\
    match alg with
    | None => i_core A2 = None /\ i_core B2 = None
    | Some _ => exists ca cb, i_core A2 = Some ca /\ i_core B2 = Some cb /\ wf_core ca /\ wf_core cb /\
                              current ca = 0 /\ current cb = 0 /\
                              s_key (get_slot ca 0) = s_key (get_slot cb 0) /\ half ca = negb (half cb)
    end.
  Proof.
    unfold run3, A0, B0. cbn.
    rewrite handle_init_eq, hi_gate_expected; [|exact HtB|reflexivity|cbn; congruence|reflexivity].
    destruct alg as [[a sp]|].
    - set (K := dh_name (fB mod 2 ^ 256) (fA mod 2 ^ 256)).
      destruct (fresh_exchange K (fA + 1) (fB + 1) _ _ rA rB pA pB HrA HrB (hash_gt_opposite sA nA sB nB (or_intror Hnode)))
        as (DA & DB & HC).
      rewrite (hi_ping_answer ok _ _ (Some (a, sp)) (Some (a, K)));
        [|reflexivity|exact HselB|unfold hi_key; cbn; rewrite ecdh_pub_ok; reflexivity].
      cbn.
      rewrite handle_init_eq, hi_gate_expected; [|exact HtA|reflexivity|exact Hnode|reflexivity].
      erewrite (hi_pong_success ok _ _ fA (Some (a, sp)) (Some (a, K)) _ pB);
        [|reflexivity|reflexivity|exact HselA|unfold hi_key; cbn; rewrite ecdh_pub_ok, dh_name_sym; reflexivity
         |apply init_decrypt_sealed; [exact DA|exact HokB]].
      cbn.
      rewrite handle_init_eq, hi_gate_expected; [|exact HtB|reflexivity|cbn; congruence|reflexivity].
      erewrite (hi_peng_success ok _ _ _ pA); [|reflexivity|apply init_decrypt_sealed; [exact DB|exact HokA]].
      do 2 eexists. split; [reflexivity|]. do 4 (split; [reflexivity|]).
      do 2 eexists. do 2 (split; [reflexivity|]). exact HC.
    - rewrite (hi_ping_answer ok _ _ None None); [|reflexivity|exact HselB|reflexivity].
      cbn.
      rewrite handle_init_eq, hi_gate_expected; [|exact HtA|reflexivity|exact Hnode|reflexivity].
      erewrite (hi_pong_success ok _ _ fA None None _ pB); [|reflexivity|reflexivity|exact HselA|reflexivity|cbn; rewrite HokB; reflexivity].
      cbn.
      rewrite handle_init_eq, hi_gate_expected; [|exact HtB|reflexivity|cbn; congruence|reflexivity].
      erewrite (hi_peng_success ok _ _ _ pA); [|reflexivity|cbn; rewrite HokA; reflexivity].
      do 2 eexists. split; [reflexivity|]. do 4 (split; [reflexivity|]). split; reflexivity.
  Qed.

End Lockstep.
