(* C10 / C02 at node level: a frame read from the interface of one node comes out of the interface of the
   selected peer, byte-identical and exactly once. *)
From VpnModel Require Import Base Nonce Replay Core CoreProofs PeerCrypto SealProofs Table Node.

Definition in_sync (cA cB : core) : Prop :=
  wf_core cA /\ wf_core cB /\
  s_key (get_slot cB (current cA)) = s_key (get_slot cA (current cA)) /\
  nonce_rebuild (half cB) (nonce_wire (nonce_increment (s_send (get_slot cA (current cA))))) =
    nonce_increment (s_send (get_slot cA (current cA))) /\
  accepts (s_win (get_slot cB (current cA))) (be_val (nonce_increment (s_send (get_slot cA (current cA))))) = true.

Lemma pc_seal_ok : forall p c ty body, pc_plain p = false -> pc_core p = Some c ->
  exists p', pc_seal p ty body = (p', Ok (WData (snd (core_encrypt c (ty :: body))))).
Proof.
  intros p c ty body Hp Hc. unfold pc_seal. rewrite Hp, Hc. destruct (core_encrypt c (ty :: body)) as [c' dg]. eexists. reflexivity.
Qed.

Theorem unicast_end_to_end : forall salts now now' nA nB frame s d s' d' addrA addrB pdA pdB cA cB tA',
  parse_frame (n_cfg nA) frame = Ok (s, d) ->
  table_lookup (n_table nA) now d = (Some addrB, tA') ->
  aget (n_peers nA) addrB = Some pdA -> pc_plain (p_crypto pdA) = false -> pc_core (p_crypto pdA) = Some cA ->
  aget (n_peers nB) addrA = Some pdB -> aget (n_pending nB) addrA = None ->
  pc_plain (p_crypto pdB) = false -> pc_core (p_crypto pdB) = Some cB ->
  in_sync cA cB ->
  parse_frame (n_cfg nB) frame = Ok (s', d') ->
  exists w, snd (handle_iface salts now nA frame) = [XSend addrB w] /\
            snd (handle_net salts now' nB addrA w) = [XWrite frame].
Proof.
  intros salts now now' nA nB frame s d s' d' addrA addrB pdA pdB cA cB tA' HpA Hlk HaA HplA HcA HaB _ HplB HcB (WA & WB & Hk & Hn & Hw) HpB.
  destruct (pc_seal_ok (p_crypto pdA) cA MESSAGE_TYPE_DATA frame HplA HcA) as [pA' Hs].
  exists (WData (snd (core_encrypt cA (MESSAGE_TYPE_DATA :: frame)))). split.
  - unfold handle_iface. rewrite HpA, Hlk. unfold send_data. cbn [upd n_peers]. rewrite HaA. unfold pc_send. rewrite Hs. reflexivity.
  - assert (Hrt : snd (fst (pc_handle payload_ok (p_crypto pdB) (WData (snd (core_encrypt cA (MESSAGE_TYPE_DATA :: frame)))))) = Ok (MMessage MESSAGE_TYPE_DATA frame)).
    { exact (pc_roundtrip payload_ok (p_crypto pdA) (p_crypto pdB) cA cB MESSAGE_TYPE_DATA frame pA' _ HplA HplB HcA HcB WA WB Hk Hn Hw eq_refl Hs). }
    unfold handle_net. cbn [is_init_wire orb]. unfold ahas. rewrite HaB. cbn [negb].
    destruct (pc_handle payload_ok (p_crypto pdB) (WData (snd (core_encrypt cA (MESSAGE_TYPE_DATA :: frame))))) as [[pc' r] reply].
    cbn [fst snd] in Hrt. subst r. cbn [handle_result]. change (MESSAGE_TYPE_DATA =? MESSAGE_TYPE_DATA) with true. cbn iota.
    cbn [upd n_cfg]. rewrite HpB. destruct (c_learning (n_cfg nB)); reflexivity.
Qed.
