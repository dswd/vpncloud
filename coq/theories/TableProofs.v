(* ClaimTable (C11-C13): set_claims makes the claims of a peer exactly the announced ones, removal and the sweep leave nothing
   stale, a lookup returns the most specific live claim and caches it, learning. *)
From VpnModel Require Import Base BaseProofs RangeMatch Table.
From Coq Require Import ZifyBool.

Lemma swap_remove_snoc : forall (A:Type) (m : list A) z i,
  swap_remove i (m ++ [z]) =
  if Nat.eqb i (length m) then m else firstn i (m ++ [z]) ++ z :: skipn (S i) m.
Proof.
  intros A m z i. unfold swap_remove. rewrite rev_app_distr. cbn [rev app].
  rewrite app_length, Nat.add_1_r, removelast_last. reflexivity.
Qed.

Lemma swap_remove_mem : forall (A:Type) (a b : list A) x y,
  In y (swap_remove (length a) (a ++ x :: b)) <-> In y a \/ In y b.
Proof.
  intros A a b x y. destruct b as [|z m _] using rev_ind.
  - rewrite swap_remove_snoc, Nat.eqb_refl. cbn [In]. tauto.
  - change (a ++ x :: m ++ [z]) with (a ++ (x :: m) ++ [z]). rewrite app_assoc, swap_remove_snoc, <- app_assoc.
    assert (Nat.eqb (length a) (length (a ++ x :: m)) = false) as -> by (apply Nat.eqb_neq; rewrite app_length; cbn [length]; lia).
    rewrite firstn_app_exact by reflexivity.
    change (a ++ x :: m) with (a ++ [x] ++ m). rewrite app_assoc, skipn_app_exact by (rewrite app_length; cbn [length]; lia).
    rewrite !in_app_iff. cbn [In]. tauto.
Qed.

Lemma range_eqb_eq : forall b1 p1 b2 p2, range_eqb b1 p1 b2 p2 = true <-> (b1 = b2 /\ p1 = p2).
Proof.
  intros. unfold range_eqb. rewrite andb_true_iff, list_eqb_eq, N.eqb_eq. reflexivity.
Qed.

Lemma position_some : forall b p l i, position b p l = Some i ->
  exists l1 l2, l = l1 ++ (b, p) :: l2 /\ length l1 = i.
Proof.
  induction l as [|[b' p'] l IH]; intros i H; simpl in H; [discriminate|].
  destruct (range_eqb b' p' b p) eqn:E.
  - injection H as <-. apply range_eqb_eq in E. destruct E; subst. exists [], l. split; reflexivity.
  - destruct (position b p l) as [j|]; [|discriminate]. injection H as <-.
    destruct (IH j eq_refl) as (l1 & l2 & -> & <-). exists ((b', p') :: l1), l2. split; reflexivity.
Qed.

Lemma position_remove : forall b p l i, position b p l = Some i ->
  forall r, In r l <-> r = (b, p) \/ In r (swap_remove i l).
Proof.
  intros b p l i H r. destruct (position_some b p l i H) as (l1 & l2 & -> & <-).
  rewrite swap_remove_mem, in_app_iff. cbn [In]. intuition congruence.
Qed.

Lemma position_none : forall b p l, position b p l = None -> ~ In (b, p) l.
Proof.
  induction l as [|[b' p'] l IH]; intros H Hin; simpl in *; [exact Hin|].
  destruct (range_eqb b' p' b p) eqn:E; [discriminate|].
  destruct (position b p l) eqn:Ep; [discriminate|].
  destruct Hin as [Hin|Hin]; [|exact (IH eq_refl Hin)].
  inversion Hin; subst. assert (range_eqb b p b p = true) by (apply range_eqb_eq; split; reflexivity). congruence.
Qed.

(* the table's way of deleting: set the expiry of the peer's entries to 0 and sweep *)

Lemma zero_and_sweep : forall (A : Type) (pe : A -> N) (to : A -> Z) (zero : A -> A) p now l x,
  (0 < now)%Z -> (forall y, to (zero y) = 0%Z) ->
  (In x (filter (fun y => (now <=? to y)%Z) (map (fun y => if pe y =? p then zero y else y) l)) <->
   In x l /\ pe x <> p /\ (now <= to x)%Z).
Proof.
  intros A pe to zero p now l x Hnow Hz. rewrite filter_In, in_map_iff. split.
  - intros [(y & E & Hy) Ha]. apply Z.leb_le in Ha. destruct (pe y =? p) eqn:Ep; subst x; [rewrite Hz in Ha; lia|].
    apply N.eqb_neq in Ep. auto.
  - intros (Hx & Hp & Ha). split; [exists x; split; [|exact Hx]|apply Z.leb_le; exact Ha].
    apply N.eqb_neq in Hp. rewrite Hp. reflexivity.
Qed.

Lemma claims_zeroed : forall peer now l c, (0 < now)%Z ->
  (In c (filter (fun c => (now <=? c_timeout c)%Z)
           (map (fun c => if c_peer c =? peer then {| c_peer := c_peer c; c_base := c_base c; c_prefix := c_prefix c; c_timeout := 0%Z |} else c) l))
   <-> In c l /\ c_peer c <> peer /\ (now <= c_timeout c)%Z).
Proof. intros peer now l c Hnow. apply (zero_and_sweep _ c_peer c_timeout); [exact Hnow|reflexivity]. Qed.

Lemma cache_zeroed : forall peer now l e, (0 < now)%Z ->
  (In e (filter (fun e => (now <=? e_timeout e)%Z)
           (map (fun e => if e_peer e =? peer then {| e_addr := e_addr e; e_peer := e_peer e; e_timeout := 0%Z |} else e) l))
   <-> In e l /\ e_peer e <> peer /\ (now <= e_timeout e)%Z).
Proof. intros peer now l e Hnow. apply (zero_and_sweep _ e_peer e_timeout); [exact Hnow|reflexivity]. Qed.

Definition crange (c : claim) : bytes * N := (c_base c, c_prefix c).

Definition mk_claim (peer : N) (to : Z) (r : bytes * N) : claim :=
  {| c_peer := peer; c_base := fst r; c_prefix := snd r; c_timeout := to |}.
Definition expire_at (to : Z) (e : claim) : claim := mk_claim (c_peer e) to (crange e).

(* relation between an old entry and what the first loop of set_claims makes of it *)
Definition sc_rel (peer : N) (fresh : Z) (new : list (bytes * N)) (e e' : claim) : Prop :=
  if c_peer e =? peer then (e' = expire_at fresh e /\ In (crange e) new) \/ e' = expire_at 0 e else e' = e.

Lemma sc_rel_weaken : forall peer fresh new new' e e',
  (forall r, In r new -> In r new') -> sc_rel peer fresh new e e' -> sc_rel peer fresh new' e e'.
Proof.
  intros peer fresh new new' e e' Hs. unfold sc_rel. destruct (c_peer e =? peer); [|tauto].
  intros [[H1 H2]|H]; [left; split; [exact H1|apply Hs, H2]|right; exact H].
Qed.

Lemma Forall2_impl : forall (A B : Type) (P Q : A -> B -> Prop) l l',
  (forall a b, P a b -> Q a b) -> Forall2 P l l' -> Forall2 Q l l'.
Proof. intros A B P Q l l' H F. induction F; constructor; auto. Qed.

Definition sc_step (peer : N) (fresh : Z) (e : claim) (new : list (bytes * N)) (removed : bool) : claim * list (bytes * N) * bool :=
  if c_peer e =? peer then
    match position (c_base e) (c_prefix e) new with
    | Some pos => (expire_at fresh e, swap_remove pos new, removed)
    | None => (expire_at 0 e, new, true)
    end
  else (e, new, removed).

Lemma sc_loop_cons : forall peer now cto e es new removed,
  sc_loop peer now cto (e :: es) new removed =
  let '(e1, new1, r1) := sc_step peer (now + cto)%Z e new removed in
  let '(es', rest, r') := sc_loop peer now cto es new1 r1 in (e1 :: es', rest, r').
Proof.
  intros. cbn [sc_loop]. unfold sc_step. destruct (c_peer e =? peer); [destruct (position _ _ new)|]; reflexivity.
Qed.

Lemma sc_step_spec : forall peer fresh e new removed e1 new1 r1,
  sc_step peer fresh e new removed = (e1, new1, r1) ->
  sc_rel peer fresh new e e1 /\
  (forall r, In r new1 -> In r new) /\
  (forall r, In r new -> In r new1 \/ e1 = mk_claim peer fresh r) /\
  (removed = true -> r1 = true) /\
  (c_peer e = peer -> ~ In (crange e) new -> r1 = true).
Proof.
  intros peer fresh e new removed e1 new1 r1. unfold sc_step, sc_rel. destruct (c_peer e =? peer) eqn:Ep.
  - apply N.eqb_eq in Ep. destruct (position (c_base e) (c_prefix e) new) as [pos|] eqn:Epos; intros H; injection H as <- <- <-.
    + pose proof (position_remove _ _ _ _ Epos) as M. fold (crange e) in M.
      assert (Hin : In (crange e) new) by (apply M; left; reflexivity).
      split; [left; split; [reflexivity|exact Hin]|]. split; [intros r Hr; apply M; right; exact Hr|].
      split; [|split; [tauto|contradiction]].
      intros r Hr. apply M in Hr. destruct Hr as [->|Hr]; [right; rewrite <- Ep; reflexivity|left; exact Hr].
    + split; [right; reflexivity|]. repeat split; tauto.
  - intros H; injection H as <- <- <-. apply N.eqb_neq in Ep. repeat split; tauto.
Qed.

Lemma sc_loop_spec : forall peer now cto es new removed es' rest removed',
  sc_loop peer now cto es new removed = (es', rest, removed') ->
  Forall2 (sc_rel peer (now + cto)%Z new) es es' /\
  (forall r, In r rest -> In r new) /\
  (forall r, In r new -> In r rest \/ In (mk_claim peer (now + cto)%Z r) es') /\
  (removed = true -> removed' = true) /\
  ((exists e, In e es /\ c_peer e = peer /\ ~ In (crange e) new) -> removed' = true).
Proof.
  intros peer now cto es. induction es as [|e es IH]; intros new removed es' rest removed' H.
  - injection H as <- <- <-. split; [constructor|]. repeat split; try tauto. intros (e & [] & _).
  - rewrite sc_loop_cons in H. destruct (sc_step peer (now + cto) e new removed) as [[e1 new1] r1] eqn:Es.
    destruct (sc_loop peer now cto es new1 r1) as [[t' n'] r'] eqn:Er. injection H as <- <- <-.
    destruct (sc_step_spec _ _ _ _ _ _ _ _ Es) as (S1 & S2 & S3 & S4 & S5).
    destruct (IH _ _ _ _ _ Er) as (F & R1 & R2 & R3 & R4).
    split; [constructor; [exact S1|]; eapply Forall2_impl; [|exact F]; intros a b; apply sc_rel_weaken, S2|].
    split; [intros r Hr; apply S2, R1, Hr|].
    split; [|split; [intros Hr; apply R3, S4, Hr|]].
    + intros r Hr. destruct (S3 r Hr) as [Hn|<-]; [|right; left; reflexivity].
      destruct (R2 r Hn) as [Hy|Hy]; [left; exact Hy|right; right; exact Hy].
    + intros (e0 & [<-|He0] & Hp & Hn); [apply R3, S5; assumption|].
      apply R4. exists e0. split; [exact He0|]. split; [exact Hp|]. intros Hc. apply Hn, S2, Hc.
Qed.

Lemma Forall2_in_r : forall (A B : Type) (P : A -> B -> Prop) l l' b, Forall2 P l l' -> In b l' -> exists a, In a l /\ P a b.
Proof.
  intros A B P l l' b F. induction F as [|x y l l' Hxy F IH]; intros Hb; [destruct Hb|].
  destruct Hb as [Hb|Hb]; [subst; exists x; split; [left; reflexivity|exact Hxy]|].
  destruct (IH Hb) as (a & Ha & Hp). exists a. split; [right; exact Ha|exact Hp].
Qed.

Lemma Forall2_in_l : forall (A B : Type) (P : A -> B -> Prop) l l' a, Forall2 P l l' -> In a l -> exists b, In b l' /\ P a b.
Proof.
  intros A B P l l' a F. induction F as [|x y l l' Hxy F IH]; intros Ha; [destruct Ha|].
  destruct Ha as [Ha|Ha]; [subst; exists y; split; [left; reflexivity|exact Hxy]|].
  destruct (IH Ha) as (b & Hb & Hp). exists b. split; [right; exact Hb|exact Hp].
Qed.

Lemma set_claims_claims : forall t now peer new c, (0 < now)%Z -> (0 <= claim_timeout t)%Z ->
  In c (claims (table_set_claims t now peer new)) <->
  (exists r, In r new /\ c = mk_claim peer (now + claim_timeout t) r) \/
  (c_peer c <> peer /\ In c (claims t) /\ (now <= c_timeout c)%Z).
Proof.
  intros t now peer new c Hnow Hcto. unfold table_set_claims.
  destruct (sc_loop peer now (claim_timeout t) (claims t) new false) as [[es rest] removed] eqn:E.
  destruct (sc_loop_spec _ _ _ _ _ _ _ _ _ E) as (F & R1 & R2 & _).
  cbn zeta. unfold table_housekeep. cbn [claims]. rewrite filter_In, in_app_iff, Z.leb_le.
  change (map _ rest) with (map (mk_claim peer (now + claim_timeout t)) rest). rewrite in_map_iff. split.
  - intros [[Hc|(r & <- & Hin)] Halive]; [|left; exists r; split; [apply R1, Hin|reflexivity]].
    destruct (Forall2_in_r _ _ _ _ _ c F Hc) as (e & He & Hrel). unfold sc_rel in Hrel. destruct (c_peer e =? peer) eqn:Ep.
    + apply N.eqb_eq in Ep. destruct Hrel as [[-> Hin]| ->]; [|cbn in Halive; lia].
      left. exists (crange e). split; [exact Hin|rewrite <- Ep; reflexivity].
    + subst c. apply N.eqb_neq in Ep. right. auto.
  - intros [(r & Hin & ->)|(Hp & Hc & Halive)].
    + split; [|cbn; lia]. destruct (R2 r Hin) as [Hr|Hr]; [right; exists r; split; [reflexivity|exact Hr]|left; exact Hr].
    + split; [left|exact Halive]. destruct (Forall2_in_l _ _ _ _ _ c F Hc) as (e' & He' & Hrel). unfold sc_rel in Hrel.
      apply N.eqb_neq in Hp. rewrite Hp in Hrel. subst e'. exact He'.
Qed.

(* C12-T1: after set_claims the claims attributed to the peer are exactly the announced ones,
   all refreshed; other peers' live entries are untouched; if anything was dropped, the peer's cached
   decisions are gone.  now > 0 is a real premise (expiry 0 is "delete", the sweep keeps >= now). *)
Theorem set_claims_exact : forall t now peer new,
  (0 < now)%Z -> (0 <= claim_timeout t)%Z ->
  let t' := table_set_claims t now peer new in
  (forall r, (exists c, In c (claims t') /\ c_peer c = peer /\ crange c = r) <-> In r new) /\
  (forall c, In c (claims t') -> c_peer c = peer -> c_timeout c = (now + claim_timeout t)%Z) /\
  (forall c, c_peer c <> peer -> (In c (claims t') <-> (In c (claims t) /\ (now <= c_timeout c)%Z))) /\
  ((exists e, In e (claims t) /\ c_peer e = peer /\ ~ In (crange e) new) ->
     forall e, In e (cache t') -> e_peer e <> peer) /\
  (forall e, In e (cache t') -> e_peer e <> peer -> In e (cache t)) /\
  cache_timeout t' = cache_timeout t /\ claim_timeout t' = claim_timeout t.
Proof.
  intros t now peer new Hnow Hcto t'.
  pose proof (fun c => set_claims_claims t now peer new c Hnow Hcto) as K. fold t' in K.
  split.
  { intros r. split.
    - intros (c & Hc & Hp & <-). apply K in Hc. destruct Hc as [(r & H & ->)|(H & _)]; [destruct r; exact H|contradiction].
    - intros Hr. exists (mk_claim peer (now + claim_timeout t) r). split; [apply K; left; exists r; auto|destruct r; auto]. }
  split.
  { intros c Hc Hp. apply K in Hc. destruct Hc as [(r & _ & ->)|(H & _)]; [reflexivity|contradiction]. }
  split.
  { intros c Hne. rewrite K. split; [intros [(r & _ & ->)|H]; [destruct Hne; reflexivity|tauto]|tauto]. }
  (* the cache is swept; before that the peer's entries are zeroed if the loop has set its flag *)
  subst t'. unfold table_set_claims.
  destruct (sc_loop peer now (claim_timeout t) (claims t) new false) as [[es rest] removed] eqn:E.
  destruct (sc_loop_spec _ _ _ _ _ _ _ _ _ E) as (_ & _ & _ & _ & R4).
  cbn zeta. unfold table_housekeep. cbn [cache cache_timeout claim_timeout].
  split.
  { intros Hdrop e He. rewrite (R4 Hdrop) in He. apply cache_zeroed in He; [apply He|exact Hnow]. }
  split.
  { intros e He Hpe. destruct removed; [apply cache_zeroed in He; [apply He|exact Hnow]|apply filter_In in He; apply He]. }
  split; reflexivity.
Qed.

(* the F3 witness: announce [a, b], then [a]: b is gone at once *)
Example set_claims_shrink :
  let t := table_set_claims (table_new 300 300) 5 1 [([10;0;0;0], 8); ([10;1;0;0], 16)] in
  map crange (claims (table_set_claims t 6 1 [([10;0;0;0], 8)])) = [([10;0;0;0], 8)].
Proof. vm_compute. reflexivity. Qed.

(* remove_claims: nothing of the peer stays behind (C12-T3's table half) *)
Theorem remove_claims_clean : forall t now peer, (0 < now)%Z ->
  let t' := table_remove_claims t now peer in
  (forall c, In c (claims t') -> c_peer c <> peer) /\
  (forall e, In e (cache t') -> e_peer e <> peer) /\
  (forall c, c_peer c <> peer -> (In c (claims t') <-> (In c (claims t) /\ (now <= c_timeout c)%Z))) /\
  (forall e, e_peer e <> peer -> (In e (cache t') <-> (In e (cache t) /\ (now <= e_timeout e)%Z))).
Proof.
  intros t now peer Hnow. unfold table_remove_claims, table_housekeep. cbn [claims cache].
  pose proof (fun c => claims_zeroed peer now (claims t) c Hnow) as C. pose proof (fun e => cache_zeroed peer now (cache t) e Hnow) as E.
  split; [intros c Hc; apply C in Hc; apply Hc|]. split; [intros e He; apply E in He; apply He|].
  split; [intros c Hne; rewrite C|intros e Hne; rewrite E]; tauto.
Qed.

(* housekeep: exactly the entries with expiry >= now survive (C12-T2, C13-T2) *)
Theorem housekeep_exact : forall t now,
  (forall c, In c (claims (table_housekeep t now)) <-> (In c (claims t) /\ (now <= c_timeout c)%Z)) /\
  (forall e, In e (cache (table_housekeep t now)) <-> (In e (cache t) /\ (now <= e_timeout e)%Z)).
Proof.
  intros t now. unfold table_housekeep. cbn [claims cache]. split; intros x; rewrite filter_In; split; intros [H1 H2]; split; try assumption; lia.
Qed.

Definition cmatches (a : bytes) (c : claim) : bool := range_matches (c_base c) (c_prefix c) a.

Lemma best_claim_spec : forall a cs best,
  match best_claim cs a best with
  | None => best = None /\ forall c, In c cs -> cmatches a c = false
  | Some x => (best = Some x \/ (In x cs /\ cmatches a x = true)) /\
              (forall c, In c cs -> cmatches a c = true -> c_prefix c <= c_prefix x) /\
              (forall b, best = Some b -> c_prefix b <= c_prefix x)
  end.
Proof.
  intros a cs. induction cs as [|c cs IH]; intros best; cbn [best_claim].
  - destruct best as [b|]; [|split; [reflexivity|intros c []]].
    split; [left; reflexivity|]. split; [intros c []|]. intros b0 H. inversion H. lia.
  - fold (cmatches a c).
    set (better := match best with None => true | Some b => c_prefix b <? c_prefix c end).
    destruct (better && cmatches a c) eqn:E.
    + apply andb_true_iff in E. destruct E as [Eb Em]. specialize (IH (Some c)).
      destruct (best_claim cs a (Some c)) as [x|]; [|destruct IH as [IH _]; discriminate].
      destruct IH as (I1 & I2 & I3). split; [|split].
      * right. destruct I1 as [I1|[I1 I1']]; [inversion I1; subst; split; [left; reflexivity|exact Em]|split; [right; exact I1|exact I1']].
      * intros c0 [Hc0|Hc0] Hm; [subst; apply I3; reflexivity|apply I2; assumption].
      * intros b Hb. subst best. unfold better in Eb. specialize (I3 c eq_refl). lia.
    + specialize (IH best). destruct (best_claim cs a best) as [x|].
      * destruct IH as (I1 & I2 & I3). split; [|split].
        -- destruct I1 as [I1|[I1 I1']]; [left; exact I1|right; split; [right; exact I1|exact I1']].
        -- intros c0 [Hc0|Hc0] Hm; [|apply I2; assumption]. subst c0. rewrite Hm in E. rewrite andb_true_r in E.
           unfold better in E. destruct best as [b|]; [|discriminate]. specialize (I3 b eq_refl). lia.
        -- exact I3.
      * destruct IH as [I1 I2]. split; [exact I1|]. intros c0 [Hc0|Hc0]; [|apply I2; exact Hc0].
        subst c0. subst best. unfold better in E. simpl in E. exact E.
Qed.

Lemma cache_get_insert_same : forall c a p to, cache_get (cache_insert c a p to) a = Some {| e_addr := a; e_peer := p; e_timeout := to |}.
Proof. intros. unfold cache_insert. cbn [cache_get e_addr]. rewrite list_eqb_refl. reflexivity. Qed.

(* C11-T2: an uncached destination goes to a live claim that matches with maximal prefix length;
   none iff no claim in the table matches.  C11-T3 (first half): the decision cached from it expires
   no later than now + switch timeout and no later than the claim itself. *)
Theorem lookup_uncached : forall t now a, cache_get (cache t) a = None ->
  match fst (table_lookup t now a) with
  | Some p => exists c, In c (claims t) /\ c_peer c = p /\ cmatches a c = true /\
                (forall c', In c' (claims t) -> cmatches a c' = true -> c_prefix c' <= c_prefix c) /\
                cache_get (cache (snd (table_lookup t now a))) a =
                  Some {| e_addr := a; e_peer := p; e_timeout := Z.min (now + cache_timeout t) (c_timeout c) |} /\
                claims (snd (table_lookup t now a)) = claims t
  | None => (forall c, In c (claims t) -> cmatches a c = false) /\ snd (table_lookup t now a) = t
  end.
Proof.
  intros t now a Hc. unfold table_lookup. rewrite Hc.
  pose proof (best_claim_spec a (claims t) None) as B.
  destruct (best_claim (claims t) a None) as [x|]; cbn [fst snd].
  - destruct B as ([B1|[B1 B1']] & B2 & _); [discriminate|].
    exists x. repeat split; try assumption. cbn [cache set_cache]. apply cache_get_insert_same.
  - destruct B as [_ B]. split; [exact B|reflexivity].
Qed.

Theorem lookup_cached : forall t now a e, cache_get (cache t) a = Some e ->
  table_lookup t now a = (Some (e_peer e), t).
Proof. intros t now a e H. unfold table_lookup. rewrite H. reflexivity. Qed.

Lemma cache_get_insert_other : forall c a b p to, b <> a ->
  cache_get (cache_insert c a p to) b = cache_get c b.
Proof.
  intros c a b p to H. unfold cache_insert. cbn [cache_get e_addr]. rewrite (list_eqb_neq a b) by congruence.
  induction c as [|e c IH]; [reflexivity|]. cbn [filter cache_get].
  destruct (list_eqb (e_addr e) a) eqn:E1; cbn [negb cache_get].
  - apply list_eqb_eq in E1. rewrite E1, (list_eqb_neq a b) by congruence. exact IH.
  - destruct (list_eqb (e_addr e) b); [reflexivity|exact IH].
Qed.

(* learning (C13-T1): the learned address maps to exactly that peer, expiring after the switch timeout,
   replacing whatever was cached for it; other addresses are untouched *)
Theorem learn_exact : forall t now a p,
  cache_get (cache (table_cache t now a p)) a = Some {| e_addr := a; e_peer := p; e_timeout := (now + cache_timeout t)%Z |} /\
  (forall b, b <> a -> cache_get (cache (table_cache t now a p)) b = cache_get (cache t) b) /\
  claims (table_cache t now a p) = claims t.
Proof.
  intros t now a p. unfold table_cache. cbn [cache set_cache claims]. split; [apply cache_get_insert_same|]. split; [|reflexivity].
  intros b Hb. apply cache_get_insert_other, Hb.
Qed.
