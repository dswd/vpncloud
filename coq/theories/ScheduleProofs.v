(* C15 at node level: the announcement schedule of housekeeping. *)
From VpnModel Require Import Base BaseProofs Interval IntervalProofs PeerCrypto NodeInfo Node.

Definition timeouts (n : node) : list N := map (fun e => p_peer_timeout (snd e)) (n_peers n).

Lemma send_data_timeouts : forall n addr ty body,
  timeouts (fst (send_data n addr ty body)) = timeouts n /\ n_cfg (fst (send_data n addr ty body)) = n_cfg n.
Proof.
  intros n addr ty body. unfold send_data, timeouts. destruct (aget (n_peers n) addr) as [pd|] eqn:E; [|split; reflexivity].
  destruct (pc_send (p_crypto pd) ty body) as [pc' [w|e|s]]; try (split; reflexivity). cbn [fst upd n_peers n_cfg]. split; [|reflexivity].
  induction (n_peers n) as [|[k v] t IH]; [discriminate|]. cbn [aget] in E. cbn [aset].
  destruct (addr =? k) eqn:Ek.
  - inversion E; subst v. reflexivity.
  - cbn [map snd]. f_equal. apply IH. exact E.
Qed.

Lemma broadcast_peer_timeouts : forall n ty body,
  timeouts (fst (broadcast n ty body)) = timeouts n /\ n_cfg (fst (broadcast n ty body)) = n_cfg n.
Proof.
  intros n ty body. unfold broadcast.
  apply (fold_left_inv _ _ (fun st => timeouts (fst st) = timeouts n /\ n_cfg (fst st) = n_cfg n)); [|split; reflexivity].
  intros [m fx] e [I1 I2]. rewrite pair_app. cbn [fst]. destruct (send_data_timeouts m (fst e) ty body) as [-> ->]. split; assumption.
Qed.

(* whenever housekeeping sends the announcement it schedules the next one after a delay that is at most one second
   or strictly shorter than the timeout every current peer advertised *)
Theorem announcement_schedule_safe : forall now n3,
  let '(m, fx) := broadcast n3 MESSAGE_TYPE_NODE_INFO (ni_encode (create_node_info n3)) in
  let advertised := map (fun e => p_peer_timeout (snd e)) (n_peers n3) in
  let iv := announce_interval (update_freq (c_peer_timeout (n_cfg m)) (c_keepalive (n_cfg m)))
                              (map (fun e => p_peer_timeout (snd e)) (n_peers m)) in
  n_next_peers (with_sched m (now + Z.of_N iv)%Z (n_next_own_reset m) (n_reconnect m)) = (now + Z.of_N iv)%Z /\
  (advertised <> [] -> iv <= 1 \/ forall x, In x advertised -> iv < x).
Proof.
  intros now n3. pose proof (broadcast_peer_timeouts n3 MESSAGE_TYPE_NODE_INFO (ni_encode (create_node_info n3))) as [B1 B2].
  destruct (broadcast n3 MESSAGE_TYPE_NODE_INFO (ni_encode (create_node_info n3))) as [m fx]. cbn [fst] in B1, B2. unfold timeouts in B1.
  cbn zeta. split; [reflexivity|]. intros Hne. rewrite B1. apply interval_safe. exact Hne.
Qed.
