(* C15, "... is removed, with its routes, at the next housekeeping tick and re-dialled": the expiry phase of housekeeping sends a
   fresh stage-1 handshake message (ping) to the address of every peer it removes - whatever else the peer had advertised, whatever
   the other peers and pending handshakes are - unless that address is one of the node's own or a handshake with it is already
   pending (the two cases in which connect_sock does nothing). *)
From VpnModel Require Import Base BaseProofs Table Conn PeerCrypto Node NodeProofs TrustProofs NextHopProofs.

Definition is_ping_to (addr : N) (e : effect) : Prop :=
  exists m, e = XSend addr (WInit m) /\ im_stage m = STAGE_PING /\ im_payload m = None.

Lemma connect_sock_own_pending : forall salts n a,
  n_own (fst (connect_sock salts n a)) = n_own n /\
  (forall b, b <> a -> ahas (n_pending (fst (connect_sock salts n a))) b = ahas (n_pending n) b).
Proof.
  intros salts n a. unfold connect_sock.
  destruct (ahas (n_peers n) a || memN a (n_own n) || ahas (n_pending n) a); [split; [reflexivity|intros; reflexivity]|].
  unfold new_instance. destruct (pc_initialize _) as [pc' [w|e|s]]; cbn [fst upd n_own n_pending with_objs]; split; try reflexivity; intros b Hb; try reflexivity.
  rewrite ahas_aset. assert ((b =? a) = false) as -> by lia. reflexivity.
Qed.

Lemma connect_sock_dials : forall salts n a,
  ahas (n_peers n) a = false -> memN a (n_own n) = false -> ahas (n_pending n) a = false ->
  exists e, snd (connect_sock salts n a) = [e] /\ is_ping_to a e.
Proof.
  intros salts n a H1 H2 H3. unfold connect_sock. rewrite H1, H2, H3. cbn [orb].
  unfold new_instance, pc_new, pc_initialize. cbn [pc_init init_new i_stage]. 
  assert ((STAGE_PING =? STAGE_PING) = true) as -> by reflexivity. cbn [negb].
  unfold init_send_ping, init_send. assert ((STAGE_PING =? STAGE_PING) = true) as -> by reflexivity.
  cbn [snd]. eexists. split; [reflexivity|]. eexists. split; [reflexivity|]. split; reflexivity.
Qed.

Lemma removed_peer_dialled : forall salts now m a, memN a (n_own m) = false -> ahas (n_pending m) a = false ->
  exists e, snd (connect_sock salts (upd m (adel (n_peers m) a) (n_pending m) (n_own m) (table_remove_claims (n_table m) now a)) a) = [e] /\
            is_ping_to a e.
Proof.
  intros salts now m a Ho Hp. apply connect_sock_dials; [|exact Ho|exact Hp]. unfold ahas. cbn [upd n_peers]. rewrite aget_adel_same. reflexivity.
Qed.

Theorem expired_peer_redialled : forall salts now n addr pd,
  aget (n_peers n) addr = Some pd -> (p_timeout pd < now)%Z ->
  memN addr (n_own n) = false -> ahas (n_pending n) addr = false ->
  exists e, In e (snd (expire_phase salts now n)) /\ is_ping_to addr e.
Proof.
  intros salts now n addr pd Hget Hto Hown Hpend. unfold expire_phase.
  (* the rounds before addr's dial other addresses: addr stays off the own list and the pending map *)
  apply (fold_left_once _ (fun st => memN addr (n_own (fst st)) = false /\ ahas (n_pending (fst st)) addr = false)
                          (fun st => exists e, In e (snd st) /\ is_ping_to addr e) _ addr);
    [| | |exact (expired_listed now _ addr pd Hget Hto)|split; assumption].
  - intros [m fx] [Ho Hp]. rewrite pair_app. cbn [fst snd] in *. destruct (removed_peer_dialled salts now m addr Ho Hp) as (e & -> & He).
    exists e. split; [apply in_or_app; right; left; reflexivity|exact He].
  - intros [m fx] a (e & He & Hpe). rewrite pair_app. exists e. split; [apply in_or_app; left; exact He|exact Hpe].
  - intros [m fx] a Hne [Ho Hp]. rewrite pair_app. cbn [fst] in *.
    rewrite (proj1 (connect_sock_own_pending salts _ a)), (proj2 (connect_sock_own_pending salts _ a)) by congruence. split; assumption.
Qed.

Lemma housekeep_effects_start_with_expire : forall salts now n e,
  In e (snd (expire_phase salts now n)) -> In e (snd (housekeep salts now n)).
Proof.
  intros salts now n e H. unfold housekeep. fold (expire_phase salts now n).
  destruct (expire_phase salts now n) as [n1 fx1]. cbn [snd] in H.
  destruct (crypto_housekeep _ _ _) as [n3 fx3].
  destruct (if (n_next_peers n3 <=? now)%Z then _ else _) as [n4 fx4].
  destruct (reconnect_step salts now n4) as [n5 fx5]. cbn [snd]. apply in_or_app. left. exact H.
Qed.

Theorem housekeep_redials_expired : forall salts now n addr pd,
  aget (n_peers n) addr = Some pd -> (p_timeout pd < now)%Z ->
  memN addr (n_own n) = false -> ahas (n_pending n) addr = false ->
  exists e, In e (snd (housekeep salts now n)) /\ is_ping_to addr e.
Proof.
  intros salts now n addr pd H1 H2 H3 H4. destruct (expired_peer_redialled salts now n addr pd H1 H2 H3 H4) as (e & He & Hp).
  exists e. split; [apply housekeep_effects_start_with_expire; exact He|exact Hp].
Qed.

(* non-vacuity: the example state of NextHopProofs holds the peer 1001, not among its own addresses, no handshake pending with it;
   by time 1000 its deadline has passed *)
Lemma ex_redial : exists pd, aget (n_peers ex_b) 1001 = Some pd /\ (p_timeout pd < 1000)%Z /\
  memN 1001 (n_own ex_b) = false /\ ahas (n_pending ex_b) 1001 = false.
Proof. eexists. split; [vm_compute; reflexivity|]. split; [vm_compute; reflexivity|]. split; vm_compute; reflexivity. Qed.
