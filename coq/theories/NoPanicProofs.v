(* C08 over whole runs: nothing a party without keys can put on the wire - unverifiable bytes, and verbatim replays of messages that
   honest nodes produced (which are well-formed) - ever makes a node panic, in any state it can reach. *)
From VpnModel Require Import Base Core CoreProofs Conn InitSteps PcSteps PeerCrypto Node NodeProofs InitProofs InvProofs TrustProofs NodeSteps PcInvariant NextHopProofs.

(* what honest nodes put on the wire: ECDH public keys of 32 bytes, non-empty sealed messages *)
Definition wf_rot (body : bytes) : Prop :=
  forall m, rot_decode body = Some m -> length (rm_propose m) = 32%nat /\ (forall ck, rm_confirm m = Some ck -> length ck = 32%nat).
Definition wf_plain (p : bytes) : Prop :=
  match p with [] => False | ty :: body => (ty =? MESSAGE_TYPE_ROTATION) = true -> wf_rot body end.
Definition wf_wire (w : wire) : Prop :=
  match w with
  | WInit m => forall b, im_ecdh m = Some b -> length b = 32%nat
  | WData (DG _ _ (Seal _ _ p) _) => wf_plain p
  | _ => True
  end.

Lemma handle_init_no_panic : forall ok s m, ecdh_inv s -> (forall b, im_ecdh m = Some b -> length b = 32%nat) ->
  panics (snd (fst (handle_init ok s m))) = false.
Proof.
  intros ok s m Hinv Hwf. destruct (snd (fst (handle_init ok s m))) as [r|e|p] eqn:E; [reflexivity|reflexivity|exfalso].
  destruct (handle_init_panic ok s m p E) as [(_ & Es & Ek)|(_ & b & Hb & Hl)]; [exact (Hinv Es Ek)|exact (Hl (Hwf b Hb))].
Qed.

Lemma decrypt_ok_shape : forall c d p, snd (core_decrypt c d) = Ok p -> exists keyid ctr k n j, d = DG keyid ctr (Seal k n p) j.
Proof.
  intros c d p H. destruct (decrypt_cases c d) as [[e E]|(keyid & ctr7 & q & j & Hk & -> & Ha)]; [rewrite E in H; discriminate H|].
  rewrite decrypt_opens in H by assumption. injection H as ->. do 5 eexists. reflexivity.
Qed.

Lemma wf_panic_in_init : forall ok p w s, wf_wire w -> snd (fst (pc_handle ok p w)) = Panic s ->
  exists m i, w = WInit m /\ pc_init p = Some i /\ snd (fst (handle_init ok i m)) = Panic s.
Proof.
  intros ok p w s Hwf H. destruct (pc_handle_panic ok p w s H) as [K|(d & c & pl & -> & Hd & Hpl)]; [exact K|exfalso].
  destruct (decrypt_ok_shape c d pl Hd) as (keyid & ctr & k & n & j & ->). cbn [wf_wire] in Hwf.
  destruct pl as [|ty body]; [exact Hwf|]. destruct Hpl as (Et & rs & fr & Hr).
  destruct (rot_handle_panic rs body fr s Hr) as (_ & m & Ed & Hlen). destruct (Hwf Et m Ed) as [Hp Hc].
  destruct Hlen as [Hl|(ck & Ec & Hl)]; [exact (Hl Hp)|exact (Hl (Hc ck Ec))].
Qed.

Definition pclosed : peer_crypto -> Prop := on_init closed_stage.

Lemma pc_handle_no_panic : forall ok p w, pinv p -> wf_wire w -> panics (snd (fst (pc_handle ok p w))) = false.
Proof.
  intros ok p w Hinv Hwf. destruct (snd (fst (pc_handle ok p w))) as [r|e|s] eqn:E; [reflexivity|reflexivity|exfalso].
  destruct (wf_panic_in_init ok p w s Hwf E) as (m & i & -> & Ei & Hp). unfold pinv in Hinv. rewrite Ei in Hinv.
  pose proof (handle_init_no_panic ok i m Hinv Hwf) as Hn. rewrite Hp in Hn. discriminate Hn.
Qed.

Lemma closed_handle_init : forall ok i m, closed_stage i -> closed_stage (fst (fst (handle_init ok i m))).
Proof. intros ok i m H. rewrite (proj1 (closed_answers ok i m H)). exact H. Qed.

Lemma pclosed_handle : forall ok p w, pclosed p -> pclosed (fst (fst (pc_handle ok p w))).
Proof. exact (on_init_handle closed_stage closed_handle_init (fun i H => H)). Qed.

Lemma pclosed_pinv : forall p, pclosed p -> pinv p.
Proof. intros p H. unfold pinv. destruct (pc_init p) as [i|] eqn:E; [exact (closed_inv i (H i E))|exact I]. Qed.

Lemma initialized_closed : forall ok p w p' r rep, pc_handle ok p w = (p', Ok r, rep) -> is_initialized r = true -> pclosed p'.
Proof.
  intros ok p w p' r rep H Hr. destruct (pc_initialized ok p w p' r rep H Hr) as (i & m & i' & pl & ini & reply & _ & _ & Eh & E).
  (* what is left of the handshake object after the hand-over is in stage 4 or gone *)
  intros j Hj. rewrite E in Hj. unfold settle in Hj. destruct (_ =? CLOSING); [discriminate Hj|]. injection Hj as <-.
  pose proof (success_closes ok i m pl ini) as K. rewrite Eh in K. exact (K eq_refl).
Qed.

Lemma init_every_second_keeps : forall i, (ecdh_inv i -> ecdh_inv (fst (init_every_second i))) /\ (closed_stage i -> closed_stage (fst (init_every_second i))).
Proof.
  intros i. destruct (init_every_second_frame i) as (_ & E2 & _ & _ & E5 & _). unfold ecdh_inv, closed_stage. rewrite E2. split.
  - intros H Hs. destruct E5 as [E5|E5]; rewrite E5 in Hs; [exact (H Hs)|discriminate Hs].
  - intros H. destruct E5 as [E5|E5]; rewrite E5; [exact H|right; reflexivity].
Qed.

Lemma tick_keeps : forall p, (pinv p -> pinv (fst (fst (pc_every_second p)))) /\ (pclosed p -> pclosed (fst (fst (pc_every_second p)))).
Proof.
  intros p. split; [|apply on_init_tick; intros i; apply init_every_second_keeps].
  destruct (pc_every_second_parts p) as (_ & _ & Hi & _). unfold pinv. intros H.
  destruct Hi as [->|(i & E & ->)]; [exact I|]. rewrite E in H. apply init_every_second_keeps, H.
Qed.

Lemma initialize_pinv : forall p, pinv p -> pinv (fst (pc_initialize p)).
Proof. intros p H. destruct (pc_initialize_parts p) as [[-> _]|(i & _ & _ & -> & _)]; [exact H|apply ecdh_inv_ping]. Qed.

Definition QP (n : node) : Prop :=
  (forall a pc, aget (n_pending n) a = Some pc -> pinv pc) /\ (forall a pd, aget (n_peers n) a = Some pd -> pclosed (p_crypto pd)).

Definition wf_event (e : event) : Prop := match e with ENet _ w => wf_wire w | _ => True end.

(* what a pending or fresh object is after a well-formed datagram: closed if it completed, and otherwise, unless the error is the
   fatal one, still holding the ECDH key it waits with *)
Lemma pinv_handled : forall p w, pinv p -> wf_wire w ->
  handled pinv pclosed (fst (fst (pc_handle payload_ok p w))) (snd (fst (pc_handle payload_ok p w))).
Proof.
  intros p w Hp Hwf.
  pose proof (pc_handle_no_panic payload_ok p w Hp Hwf) as Hnp. pose proof (pinv_preserved payload_ok p w Hp) as Hpres.
  pose proof (fun p' r rep => initialized_closed payload_ok p w p' r rep) as Hcl.
  destruct (pc_handle payload_ok p w) as [[p' r] rep]. cbn [fst snd] in *.
  destruct r as [res|e|s]; cbn [handled]; [| |discriminate Hnp].
  - destruct (is_initialized res) eqn:Hi; [exact (Hcl p' res rep eq_refl Hi)|apply Hpres; reflexivity].
  - intros He. apply Hpres; [|reflexivity]. cbn [pfatal].
    destruct e as [|[q|q|]]; try reflexivity. destruct q; try reflexivity. contradiction He. reflexivity.
Qed.

Lemma trans_qp : forall salts now ev sch n fx n', trans salts now ev sch n fx n' -> wf_event ev -> QP n -> QP n'.
Proof.
  intros salts now ev sch n fx n' T Hwf (Hq & Hp).
  destruct (objs_trans (n_cfg n) pinv pclosed wf_wire (fun _ => True)) with (8 := T) as [(_ & Hq' & Hp') _]; try (split; assumption).
  - intros m salt _. apply pinv_new.
  - intros p Hi. split; [apply initialize_pinv, Hi|intros; exact I].
  - intros p w Hi Hw. split; [apply pinv_handled; assumption|intros; exact I].
  - intros p w Hc _. split; [apply pclosed_handle, Hc|intros; exact I].
  - intros p Hi. split; [apply tick_keeps, Hi|intros; exact I].
  - intros p Hc. split; [apply tick_keeps, Hc|intros; exact I].
  - intros p ty b Hc. split; [exact (on_init_seal closed_stage p ty b Hc)|intros; exact I].
  - intros src w ->. exact Hwf.
  - split; [reflexivity|split; assumption].
Qed.

Theorem step_qp : forall salts now n e, QP n -> wf_event e -> QP (fst (step salts now n e)).
Proof. intros salts now n e H Hwf. revert H. apply step_keeps. intros m fx m' T. exact (trans_qp _ _ _ _ _ _ _ T Hwf). Qed.

Theorem reachable_qp : forall salts c t0 evs, Forall (fun te => wf_event (snd te)) evs -> QP (nrun salts (node_new c t0) evs).
Proof.
  intros salts c t0 evs Hall. apply (nrun_inv salts (fun te => wf_event (snd te))); [|exact Hall|split; intros a x Hx; discriminate Hx].
  intros now e n Hwf H. apply step_qp; assumption.
Qed.

(* C08, whole runs: as long as everything that ever arrived was well-formed (unverifiable bytes and verbatim replays of honest
   nodes' messages are), the next datagram - from any source, handled by whichever connection or handshake object answers for that
   source - does not panic, and neither does any housekeeping second *)
Theorem reachable_no_panic : forall salts c t0 evs src w pc, Forall (fun te => wf_event (snd te)) evs -> wf_wire w ->
  answering_object salts (nrun salts (node_new c t0) evs) src pc ->
  panics (snd (fst (pc_handle payload_ok pc w))) = false.
Proof.
  intros salts c t0 evs src w pc Hall Hwf Hobj. destruct (reachable_qp salts c t0 evs Hall) as [Hq Hp].
  destruct Hobj as [Hpend|[(pd & Hpd & Epc)|Epc]]; try subst pc.
  - apply pc_handle_no_panic; [exact (Hq _ _ Hpend)|exact Hwf].
  - apply pc_handle_no_panic; [exact (pclosed_pinv _ (Hp _ _ Hpd))|exact Hwf].
  - apply pc_handle_no_panic; [|exact Hwf]. unfold new_instance. cbn [snd]. apply pinv_new.
Qed.

Theorem every_second_never_panics : forall p, panics (snd (fst (pc_every_second p))) = false.
Proof. intros p. pose proof (pc_every_second_no_panic p) as Hn. destruct (snd (fst (pc_every_second p))); [reflexivity|reflexivity|destruct Hn]. Qed.

Lemma unverifiable_wf : forall w, unverifiable w -> wf_wire w.
Proof. intros w H. destruct w as [m| | |d|b]; cbn [wf_wire]; try exact I; try (destruct H; fail). destruct d as [k c [kk nn p|] j|n]; try exact I. destruct H. Qed.

(* non-vacuity: the two handshake messages that lead to the example state of NextHopProofs are well-formed *)
Lemma ex_wf : Forall (fun te => wf_event (snd te)) ex_evs.
Proof.
  assert (E : exists m1 m2, ex_evs = [(1%Z, ENet 1001 (WInit m1)); (1%Z, ENet 1001 (WInit m2))] /\
              (exists b1, im_ecdh m1 = Some b1 /\ length b1 = 32%nat) /\ im_ecdh m2 = None).
  { vm_compute. eexists. eexists. split; [reflexivity|]. split; [eexists; split; reflexivity|reflexivity]. }
  destruct E as (m1 & m2 & -> & (b1 & E1 & L1) & E2).
  repeat constructor; cbn [snd wf_event wf_wire]; intros b Hb; congruence.
Qed.
