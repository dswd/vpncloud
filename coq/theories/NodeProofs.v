(* What one call of a node function does, for every node state: unverifiable datagrams leave no trace (C01, C08), an interface read
   only sends and a received frame is only written (C10, C13), own messages and own addresses (C14), a replayed handshake message
   and an established peer (C09), the expiry phase of housekeeping (C15); the association-list lemmas the node layer shares; the
   peer exchange as a closure of graphs (C14). *)
From VpnModel Require Import Base BaseProofs Table TableProofs Core CoreProofs Conn InitSteps PeerCrypto NodeInfo Interval Node Answerer.

Lemma aset_same : forall (A:Type) (l : list (N * A)) k v, aget l k = Some v -> aset l k v = l.
Proof.
  induction l as [|[k' v'] t IH]; intros k v H; simpl in *; [discriminate|].
  destruct (k =? k') eqn:E; [apply N.eqb_eq in E; subst; inversion H; reflexivity|]. rewrite IH by exact H. reflexivity.
Qed.

Lemma aget_aset_same : forall (A:Type) (l : list (N * A)) k v, aget (aset l k v) k = Some v.
Proof.
  induction l as [|[k' v'] t IH]; intros k v; simpl; [rewrite N.eqb_refl; reflexivity|].
  destruct (k =? k') eqn:E; simpl; [rewrite N.eqb_refl; reflexivity|rewrite E; apply IH].
Qed.

Lemma aget_aset_other : forall (A:Type) (l : list (N * A)) k k' v, k <> k' -> aget (aset l k v) k' = aget l k'.
Proof.
  induction l as [|[k0 v0] t IH]; intros k k' v H; simpl.
  - assert ((k' =? k) = false) as -> by lia. reflexivity.
  - destruct (k =? k0) eqn:E; simpl.
    + apply N.eqb_eq in E; subst. assert ((k' =? k0) = false) as -> by lia. reflexivity.
    + destruct (k' =? k0); [reflexivity|apply IH; exact H].
Qed.

Lemma aget_adel_same : forall (A:Type) (l : list (N * A)) k, aget (adel l k) k = None.
Proof.
  induction l as [|[k' v] t IH]; intros k; [reflexivity|]. unfold adel in *. cbn [filter fst].
  destruct (k' =? k) eqn:E; cbn [negb]; [apply IH|]. cbn [aget]. assert ((k =? k') = false) as -> by lia. apply IH.
Qed.

Lemma aget_adel_other : forall (A:Type) (l : list (N * A)) k k', k <> k' -> aget (adel l k) k' = aget l k'.
Proof.
  induction l as [|[k0 v] t IH]; intros k k' H; [reflexivity|]. unfold adel in *. cbn [filter fst].
  destruct (k0 =? k) eqn:E; cbn [negb aget].
  - apply N.eqb_eq in E. subst. assert ((k' =? k) = false) as -> by lia. apply IH. exact H.
  - destruct (k' =? k0); [reflexivity|apply IH; exact H].
Qed.

Lemma adel_aset : forall (A : Type) (l : list (N * A)) k v, adel (aset l k v) k = adel l k.
Proof.
  intros A l k v. unfold adel. induction l as [|[k' v'] t IH]; cbn [aset filter fst]; [rewrite N.eqb_refl; reflexivity|].
  destruct (k =? k') eqn:E; cbn [filter fst].
  - apply N.eqb_eq in E. subst k'. rewrite N.eqb_refl. reflexivity.
  - rewrite N.eqb_sym, E. cbn [negb]. rewrite IH. reflexivity.
Qed.

Lemma pc_set_id : forall p, pc_set p (pc_init p) (pc_rot p) (pc_plain p) (pc_core p) (pc_counter p) (pc_fresh p) = p.
Proof. intros []; reflexivity. Qed.

(* what an outsider can make: bytes that do not verify, or that are not a genuine seal *)
Definition unverifiable (w : wire) : Prop :=
  match w with
  | WBadInit | WEmpty => True
  | WData (DShort _) => True
  | WData (DG _ _ Junk _) => True
  | _ => False
  end.

Lemma core_decrypt_junk : forall c d,
  match d with DShort _ => True | DG _ _ Junk _ => True | _ => False end ->
  exists e, core_decrypt c d = (c, Err e).
Proof. intros c d H. destruct (decrypt_cases c d) as [E|(keyid & ctr7 & p & j & _ & -> & _)]; [exact E|destruct H]. Qed.

(* C08 / C01: such a datagram is an ordinary error for every PeerCrypto object, leaves it untouched
   and produces no reply and no panic *)
Lemma pc_handle_unverifiable : forall ok p w, unverifiable w -> pc_plain p = false ->
  pc_handle ok p w = (p, Err 1, None).
Proof.
  intros ok p w Hw Hp. destruct w as [m| | |d|b]; simpl in Hw; try contradiction.
  - unfold pc_handle. destruct (pc_init p); reflexivity.
  - reflexivity.
  - unfold pc_handle. rewrite Hp. destruct (pc_core p) as [c|] eqn:Ec; [|reflexivity].
    destruct (core_decrypt_junk c d Hw) as [e He]. rewrite He, <- Hp, <- Ec, pc_set_id. reflexivity.
Qed.

Definition same_state (n n' : node) : Prop :=
  n_peers n' = n_peers n /\ n_pending n' = n_pending n /\ n_own n' = n_own n /\ n_table n' = n_table n /\
  n_next_peers n' = n_next_peers n /\ n_next_own_reset n' = n_next_own_reset n /\ n_reconnect n' = n_reconnect n /\ n_dropped n' = n_dropped n.

(* all PeerCrypto objects of a node negotiated encryption (the property's "unless both ends enabled plain") *)
Definition all_encrypted (n : node) : Prop :=
  (forall a pc, aget (n_pending n) a = Some pc -> pc_plain pc = false) /\
  (forall a pd, aget (n_peers n) a = Some pd -> pc_plain (p_crypto pd) = false) /\
  a_plain (c_algos (n_cfg n)) = false.

Lemma new_instance_plain : forall n salt, pc_plain (snd (new_instance n salt)) = false.
Proof. intros. reflexivity. Qed.

Lemma answerer_encrypted : forall salts n src w pl pc, all_encrypted n -> answerer salts n src w = Some (pl, pc) -> pc_plain pc = false.
Proof.
  intros salts n src w pl pc (Hpend & Hpeers & _) H. apply answerer_object in H. destruct pl as [[]|pd].
  - destruct H as (-> & _). apply new_instance_plain.
  - exact (Hpend _ _ H).
  - destruct H as (H & -> & _). exact (Hpeers _ _ H).
Qed.

(* a datagram that the answering object refuses, staying as it was, leaves nothing behind at the node: only the invalid-traffic
   counter (and the count of throw-away handshake objects) moves *)
Lemma refused_no_residue : forall salts now n src w,
  (forall pl pc, answerer salts n src w = Some (pl, pc) -> pc_handle payload_ok pc w = (pc, Err 1, None)) ->
  same_state n (fst (handle_net salts now n src w)) /\ snd (handle_net salts now n src w) = [] /\
  n_cfg (fst (handle_net salts now n src w)) = n_cfg n.
Proof.
  intros salts now n src w H. rewrite handle_net_eq.
  destruct (answerer salts n src w) as [[pl pc]|] eqn:Ha; [|repeat split; reflexivity].
  rewrite (H pl pc eq_refl). split; [|split; [reflexivity|exact (proj1 (rejected_rest salts n src pl pc (Err 1) ltac:(discriminate)))]].
  (* the object is stored back as it was *)
  apply answerer_object in Ha. destruct pl as [[]|pd]; cbn [fst rejected put origin N.eqb Pos.eqb].
  - repeat split; reflexivity.
  - unfold same_state. cbn [with_invalid upd n_peers n_pending n_own n_table n_next_peers n_next_own_reset n_reconnect n_dropped].
    rewrite (aset_same _ _ _ _ Ha). repeat split; reflexivity.
  - destruct Ha as (Ha & -> & _). unfold same_state. cbn [with_invalid upd n_peers n_pending n_own n_table n_next_peers n_next_own_reset n_reconnect n_dropped].
    replace (with_crypto pd (p_crypto pd)) with pd by (destruct pd; reflexivity). rewrite (aset_same _ _ _ _ Ha). repeat split; reflexivity.
Qed.

Lemma unverifiable_refused : forall salts n src w, unverifiable w -> all_encrypted n ->
  forall pl pc, answerer salts n src w = Some (pl, pc) -> pc_handle payload_ok pc w = (pc, Err 1, None).
Proof. intros salts n src w Hw He pl pc Ha. exact (pc_handle_unverifiable payload_ok pc w Hw (answerer_encrypted _ _ _ _ _ _ He Ha)). Qed.

(* C08-T1/T2, C01-T2: a datagram no outsider could make valid leaves nothing behind at the node -
   no peer, no pending handshake, no route, no reply, no interface write - whatever the source address and
   whatever state the node is in towards that address *)
Theorem unverifiable_no_residue : forall salts now n src w, unverifiable w -> all_encrypted n ->
  same_state n (fst (handle_net salts now n src w)) /\ snd (handle_net salts now n src w) = [].
Proof.
  intros salts now n src w Hw He. destruct (refused_no_residue salts now n src w (unverifiable_refused salts n src w Hw He)) as (A & B & _).
  split; assumption.
Qed.

Lemma same_state_encrypted : forall n n', same_state n n' -> n_cfg n' = n_cfg n -> all_encrypted n -> all_encrypted n'.
Proof.
  intros n n' (H1 & H2 & _) Hc (A & B & C). unfold all_encrypted. rewrite H1, H2, Hc. repeat split; assumption.
Qed.

Lemma handle_net_cfg_unverifiable : forall salts now n src w, unverifiable w -> all_encrypted n ->
  n_cfg (fst (handle_net salts now n src w)) = n_cfg n.
Proof. intros salts now n src w Hw He. apply (refused_no_residue salts now n src w (unverifiable_refused salts n src w Hw He)). Qed.

Fixpoint inject_all (salts : list (N * N)) (now : Z) (n : node) (l : list (N * wire)) : node * list effect :=
  match l with
  | [] => (n, [])
  | (src, w) :: t => let '(n', fx) := handle_net salts now n src w in
                     let '(n'', fx') := inject_all salts now n' t in (n'', fx ++ fx')
  end.

(* C08-T3: any sequence of such datagrams, from any addresses *)
Theorem unverifiable_sequence : forall salts now l n, Forall (fun x => unverifiable (snd x)) l -> all_encrypted n ->
  same_state n (fst (inject_all salts now n l)) /\ snd (inject_all salts now n l) = [].
Proof.
  intros salts now l. induction l as [|[src w] t IH]; intros n Hl He.
  - split; [repeat split; reflexivity|reflexivity].
  - inversion Hl as [|? ? Hw Ht]; subst. cbn [snd] in Hw. cbn [inject_all].
    destruct (unverifiable_no_residue salts now n src w Hw He) as [S1 F1].
    pose proof (handle_net_cfg_unverifiable salts now n src w Hw He) as Hc.
    destruct (handle_net salts now n src w) as [n' fx]. cbn [fst snd] in *. subst fx.
    pose proof (same_state_encrypted n n' S1 Hc He) as He'.
    destruct (IH n' Ht He') as [S2 F2]. destruct (inject_all salts now n' t) as [n'' fx']. cbn [fst snd] in *. subst fx'.
    split; [|reflexivity]. unfold same_state in *. intuition congruence.
Qed.

Definition is_send (e : effect) : bool := match e with XSend _ _ => true | XWrite _ => false end.
Definition is_write (e : effect) : bool := negb (is_send e).

Lemma send_data_effects : forall n addr ty body,
  snd (send_data n addr ty body) = [] \/
  (exists w, snd (send_data n addr ty body) = [XSend addr w] /\ ahas (n_peers n) addr = true).
Proof.
  intros n addr ty body. unfold send_data, ahas. destruct (aget (n_peers n) addr) as [pd|]; [|left; reflexivity].
  destruct (pc_send (p_crypto pd) ty body) as [pc' [w|e|s]]; [right; exists w; split; reflexivity|left; reflexivity|left; reflexivity].
Qed.

Lemma send_data_sends : forall n addr ty body, Forall (fun e => is_send e = true) (snd (send_data n addr ty body)).
Proof. intros n addr ty body. destruct (send_data_effects n addr ty body) as [->|(w & -> & _)]; repeat constructor. Qed.

(* C10-T1 / C11-T4: an interface read only ever sends datagrams, it never writes to the interface.  Which datagrams: none, and the
   dropped-payload counter +1, for an unknown destination in router mode (iface_unknown_router_drops); one per peer when the mode
   floods (FloodProofs.reachable_flood_every_peer_once); the looked-up next hop is a peer (NextHopProofs.next_hop_is_peer) *)
Theorem iface_read_effects : forall salts now n frame,
  Forall (fun e => is_send e = true) (snd (handle_iface salts now n frame)).
Proof.
  intros salts now n frame. unfold handle_iface.
  destruct (parse_frame (n_cfg n) frame) as [[s d]|e|p]; try constructor.
  destruct (table_lookup (n_table n) now d) as [[addr|] t']; [apply send_data_sends|].
  destruct (c_broadcast (n_cfg n)); [|constructor]. unfold broadcast.
  apply (fold_left_inv _ _ (fun st => Forall (fun e => is_send e = true) (snd st))); [|constructor].
  intros [m fx] x H. rewrite pair_app. apply Forall_app. split; [exact H|apply send_data_sends].
Qed.

Theorem iface_unknown_router_drops : forall salts now n frame s d t',
  parse_frame (n_cfg n) frame = Ok (s, d) -> table_lookup (n_table n) now d = (None, t') -> c_broadcast (n_cfg n) = false ->
  snd (handle_iface salts now n frame) = [] /\ n_dropped (fst (handle_iface salts now n frame)) = n_dropped n + 1.
Proof.
  intros salts now n frame s d t' Hp Hl Hb. unfold handle_iface. rewrite Hp, Hl, Hb. split; reflexivity.
Qed.

(* C10-T2: a received payload is written to the interface once and causes no datagram at all *)
Theorem data_no_relay : forall salts now n src body reply,
  snd (handle_result salts now n src (MMessage MESSAGE_TYPE_DATA body) reply) = [XWrite body] \/
  snd (handle_result salts now n src (MMessage MESSAGE_TYPE_DATA body) reply) = [].
Proof.
  intros. unfold handle_result. cbn [N.eqb MESSAGE_TYPE_DATA].
  destruct (parse_frame (n_cfg n) body) as [[s d]|e|p]; [left; reflexivity|right; reflexivity|right; reflexivity].
Qed.

(* C13-T1: with learning, a data frame from peer P with source address S makes P the next hop for S
   for the switch timeout, replacing whatever was known; without learning the table is untouched *)
Theorem data_learns : forall salts now n src body reply s d,
  parse_frame (n_cfg n) body = Ok (s, d) ->
  let n' := fst (handle_result salts now n src (MMessage MESSAGE_TYPE_DATA body) reply) in
  if c_learning (n_cfg n)
  then cache_get (cache (n_table n')) s = Some {| e_addr := s; e_peer := src; e_timeout := (now + cache_timeout (n_table n))%Z |} /\
       (forall b, b <> s -> cache_get (cache (n_table n')) b = cache_get (cache (n_table n)) b) /\
       claims (n_table n') = claims (n_table n)
  else n_table n' = n_table n.
Proof.
  intros salts now n src body reply s d Hp. unfold handle_result. cbn [N.eqb MESSAGE_TYPE_DATA]. rewrite Hp.
  destruct (c_learning (n_cfg n)); cbn [fst upd n_table]; [apply learn_exact|reflexivity].
Qed.

Definition init_msg_ok (s : init_state) (m : imsg) : Prop :=
  existsb (N.eqb (im_signer m)) (i_trusted s) = true.

(* C14: every handshake object of a node rejects a message carrying the node's own identity, whatever stage it is in and whatever
   addresses were involved: as "connected to self" (fatal: the pending entry is deleted), unless the message is refused earlier
   as untrusted or incomplete *)
Theorem own_message_rejected : forall ok s m, im_node m = i_node s ->
  (snd (fst (handle_init ok s m)) = Err 1 \/ snd (fst (handle_init ok s m)) = Err 2) /\
  fst (fst (handle_init ok s m)) = s /\ snd (handle_init ok s m) = None.
Proof.
  intros ok s m Hn. rewrite handle_init_eq. unfold hi_gate.
  destruct (negb (existsb (N.eqb (im_signer m)) (i_trusted s))); [split; [left; reflexivity|split; reflexivity]|].
  destruct (negb (hi_fields_ok m)); [split; [left; reflexivity|split; reflexivity]|].
  rewrite Hn, N.eqb_refl, orb_true_r. split; [right; reflexivity|split; reflexivity].
Qed.

(* addresses that peers list under the node's own identity are adopted as own addresses and not dialled *)
Theorem adopt_own_addresses : forall salts n p, pi_node p = Some (node_id_bytes (c_num (n_cfg n))) ->
  existsb (fun a => ahas (n_peers n) a) (map addr_of_bytes (pi_addrs p)) = false ->
  let r := connect_to_peers salts n [p] in
  snd r = [] /\ n_peers (fst r) = n_peers n /\ n_pending (fst r) = n_pending n /\
  (forall a, In a (map addr_of_bytes (pi_addrs p)) -> memN a (n_own (fst r)) = true).
Proof.
  intros salts n p Hid Hnp. unfold connect_to_peers. cbn [fold_left]. rewrite Hnp, Hid, list_eqb_refl.
  cbn [fst snd upd n_peers n_pending n_own]. repeat split.
  intros a Ha. apply (fold_left_once _ (fun _ => True) (fun own => memN a own = true) _ a); [| | |exact Ha|exact I].
  - intros own _. destruct (memN a own) eqn:E; [exact E|]. unfold memN. rewrite existsb_app. cbn [existsb]. rewrite N.eqb_refl. apply orb_true_r.
  - intros own x H. destruct (memN x own); [exact H|]. unfold memN in *. rewrite existsb_app, H. reflexivity.
  - intros; exact I.
Qed.

(* in particular a fresh handshake object never completes on its first message *)
Lemma ping_stage_no_completion : forall ok p i m, pc_init p = Some i -> i_stage i = STAGE_PING ->
  match snd (fst (pc_handle ok p (WInit m))) with
  | Ok MReply | Err _ | Panic _ => True
  | _ => False
  end.
Proof.
  intros ok p i m Hi Hs. cbn [pc_handle]. unfold pc_handle_init. rewrite Hi.
  destruct (handle_init ok i m) as [[i' r] reply] eqn:E. destruct r as [[|pl ini]|e|s]; try exact I.
  destruct (handle_init_success _ _ _ _ _ _ _ E) as (_ & _ & _ & K & _). destruct (K Hs).
Qed.

(* C09: a handshake message replayed from the address of an established peer (no handshake object left
   for that address) creates at most a pending entry; the peer entry, the routes and the own addresses
   are untouched, and nothing is written to the interface *)
Theorem replayed_init_keeps_peer : forall salts now n src m pd,
  aget (n_peers n) src = Some pd -> pc_has_init (p_crypto pd) = false -> aget (n_pending n) src = None ->
  let r := handle_net salts now n src (WInit m) in
  n_peers (fst r) = n_peers n /\ n_table (fst r) = n_table n /\ n_own (fst r) = n_own n /\
  Forall (fun e => is_send e = true) (snd r).
Proof.
  intros salts now n src m pd Hp Hi Hpend. rewrite handle_net_eq. unfold answerer. cbn [is_init_wire orb negb]. rewrite Hpend, Hp, Hi.
  pose proof (ping_stage_no_completion payload_ok (fresh_object salts n src) _ m eq_refl eq_refl) as F.
  destruct (pc_handle payload_ok (fresh_object salts n src) (WInit m)) as [[pc' r] reply]. cbn [fst snd] in F.
  destruct r as [res|e|s]; [|repeat split; constructor..].
  destruct res; try contradiction. repeat split. cbn [handle_result snd]. destruct reply; repeat constructor.
Qed.

(* C09 / C05: a pending handshake that gives up removes only itself (fix of F8) *)
Lemma fold_adel_pending_peers : forall l n,
  n_peers (fold_left (fun m addr => upd m (n_peers m) (adel (n_pending m) addr) (n_own m) (n_table m)) l n) = n_peers n /\
  n_table (fold_left (fun m addr => upd m (n_peers m) (adel (n_pending m) addr) (n_own m) (n_table m)) l n) = n_table n.
Proof. intros l n. split; [apply (fold_left_keeps _ _ _ n_peers)|apply (fold_left_keeps _ _ _ n_table)]; reflexivity. Qed.

Lemma connect_sock_peers : forall salts n addr, n_peers (fst (connect_sock salts n addr)) = n_peers n /\ n_table (fst (connect_sock salts n addr)) = n_table n.
Proof.
  intros. unfold connect_sock. destruct (ahas (n_peers n) addr || memN addr (n_own n) || ahas (n_pending n) addr); [split; reflexivity|].
  unfold new_instance. destruct (pc_initialize _) as [pc' [w|e|s]]; split; reflexivity.
Qed.

Definition routing (st : node * list effect) : list (N * peer_data) * table := (n_peers (fst st), n_table (fst st)).

Lemma connect_keeps : forall salts n addrs, routing (connect salts n addrs) = routing (n, []).
Proof.
  intros salts n addrs. unfold connect. destruct (existsb _ addrs); [reflexivity|]. apply (fold_left_keeps _ _ _ routing).
  intros [m fx] a. destruct (connect_sock_peers salts m a) as [E1 E2]. destruct (connect_sock salts m a) as [m' fx']. unfold routing. cbn [fst] in *. congruence.
Qed.

Lemma connect_to_peers_keeps : forall salts ps n, routing (connect_to_peers salts n ps) = routing (n, []).
Proof.
  intros salts ps n. unfold connect_to_peers. apply (fold_left_keeps _ _ _ routing). intros [m fx] p.
  destruct (existsb _ (map addr_of_bytes (pi_addrs p))); [reflexivity|].
  pose proof (connect_keeps salts m (map addr_of_bytes (pi_addrs p))) as K.
  destruct (pi_node p) as [id|]; [destruct (list_eqb id _); [reflexivity|]; destruct (existsb _ (n_peers m)); [reflexivity|]|];
    destruct (connect salts m _) as [m' fx']; exact K.
Qed.

(* peer timeout (C15-T2): the first phase of housekeep removes every peer whose refresh is older than the peer timeout, with
   its routes (`expired_peers_removed`); that it re-dials them is RedialProofs.expired_peer_redialled *)

Definition expire_phase (salts : list (N * N)) (now : Z) (n : node) : node * list effect :=
  fold_left (fun acc addr =>
      let '(m, fx) := acc in
      let m1 := upd m (adel (n_peers m) addr) (n_pending m) (n_own m) (table_remove_claims (n_table m) now addr) in
      let '(m2, fx') := connect_sock salts m1 addr in (m2, fx ++ fx'))
    (map fst (filter (fun e => (p_timeout (snd e) <? now)%Z) (n_peers n))) (n, []).

Lemma expired_listed : forall now (l : list (N * peer_data)) addr pd, aget l addr = Some pd -> (p_timeout pd < now)%Z ->
  In addr (map fst (filter (fun e => (p_timeout (snd e) <? now)%Z) l)).
Proof.
  intros now l addr pd Hget Hto. induction l as [|[k v] t IH]; [discriminate|]. cbn [aget] in Hget. cbn [filter snd].
  destruct (addr =? k) eqn:E.
  - apply N.eqb_eq in E. subst k. inversion Hget; subst v. assert ((p_timeout pd <? now)%Z = true) as -> by lia. left. reflexivity.
  - destruct (p_timeout v <? now)%Z; [right|]; apply IH; exact Hget.
Qed.

Definition unrouted (peers : list (N * peer_data)) (t : table) (addr : N) : Prop :=
  aget peers addr = None /\ (forall c, In c (claims t) -> c_peer c <> addr) /\ (forall e, In e (cache t) -> e_peer e <> addr).

(* removing a peer (this needs a positive clock: time-outs of 0 mark removed entries) takes its routes and adds none *)
Lemma unrouted_remove : forall peers t now a addr, (0 < now)%Z -> a = addr \/ unrouted peers t addr ->
  unrouted (adel peers a) (table_remove_claims t now a) addr.
Proof.
  intros peers t now a addr Hnow H. destruct (remove_claims_clean t now a Hnow) as (R1 & R2 & R3 & R4).
  destruct (N.eq_dec a addr) as [->|Hne]; [split; [apply aget_adel_same|split; assumption]|].
  destruct H as [H|(H1 & H2 & H3)]; [destruct (Hne H)|]. split; [rewrite aget_adel_other by exact Hne; exact H1|]. split.
  - intros c Hc. destruct (N.eq_dec (c_peer c) a) as [E|Hc']; [rewrite E; exact Hne|exact (H2 c (proj1 (proj1 (R3 c Hc') Hc)))].
  - intros e He. destruct (N.eq_dec (e_peer e) a) as [E|He']; [rewrite E; exact Hne|exact (H3 e (proj1 (proj1 (R4 e He') He)))].
Qed.

(* one round of the loops that remove peers (time-out here, a failed connection in crypto_housekeep): the peer goes with its
   routes, then its address is dialled *)
Lemma redial_unrouted : forall salts now m a addr, (0 < now)%Z -> a = addr \/ unrouted (n_peers m) (n_table m) addr ->
  let m' := fst (connect_sock salts (upd m (adel (n_peers m) a) (n_pending m) (n_own m) (table_remove_claims (n_table m) now a)) a) in
  unrouted (n_peers m') (n_table m') addr.
Proof.
  intros salts now m a addr Hnow H m'. subst m'. rewrite (proj1 (connect_sock_peers salts _ a)), (proj2 (connect_sock_peers salts _ a)).
  apply unrouted_remove; assumption.
Qed.

Theorem expired_peers_removed : forall salts now n addr pd, (0 < now)%Z ->
  aget (n_peers n) addr = Some pd -> (p_timeout pd < now)%Z ->
  aget (n_peers (fst (expire_phase salts now n))) addr = None /\
  (forall c, In c (claims (n_table (fst (expire_phase salts now n)))) -> c_peer c <> addr) /\
  (forall e, In e (cache (n_table (fst (expire_phase salts now n)))) -> e_peer e <> addr).
Proof.
  intros salts now n addr pd Hnow Hget Hto. unfold expire_phase.
  apply (fold_left_once _ (fun _ => True) (fun st => unrouted (n_peers (fst st)) (n_table (fst st)) addr) _ addr);
    [| | |exact (expired_listed now _ addr pd Hget Hto)|exact I].
  - intros [m fx] _. rewrite pair_app. apply redial_unrouted; [exact Hnow|left; reflexivity].
  - intros [m fx] a H. rewrite pair_app. apply redial_unrouted; [exact Hnow|right; exact H].
  - intros; exact I.
Qed.

Lemma housekeep_starts_with_expire : forall salts now n,
  fst (housekeep salts now n) =
  fst (let '(n1, fx1) := expire_phase salts now n in
       let n2 := upd n1 (n_peers n1) (n_pending n1) (n_own n1) (table_housekeep (n_table n1) now) in
       let '(n3, fx3) := crypto_housekeep salts now n2 in
       let '(n4, fx4) :=
         if (n_next_peers n3 <=? now)%Z then
           let '(m, fx) := broadcast n3 MESSAGE_TYPE_NODE_INFO (ni_encode (create_node_info n3)) in
           let iv := announce_interval (update_freq (c_peer_timeout (n_cfg m)) (c_keepalive (n_cfg m)))
                                       (map (fun e => p_peer_timeout (snd e)) (n_peers m)) in
           (with_sched m (now + Z.of_N iv)%Z (n_next_own_reset m) (n_reconnect m), fx)
         else (n3, []) in
       let '(n5, fx5) := reconnect_step salts now n4 in
       let n6 := if negb (c_hkfault (n_cfg n5)) && (n_next_own_reset n5 <=? now)%Z
                 then with_sched (upd n5 (n_peers n5) (n_pending n5) (c_advertise (n_cfg n5) ++ [c_addr (n_cfg n5)]) (n_table n5)) (n_next_peers n5) (now + 300)%Z (n_reconnect n5)
                 else n5 in
       (n6, fx1 ++ fx3 ++ fx4 ++ fx5)).
Proof. intros. reflexivity. Qed.

Section Closure.
  Variable V : Type.
  Definition graph := V -> V -> Prop.

  (* one peer-exchange round: whoever is connected to a neighbour of mine becomes my neighbour *)
  Definition exchange (E : graph) : graph := fun u w => E u w \/ exists v, E u v /\ E v w.

  Inductive path (E : graph) : nat -> V -> V -> Prop :=
  | path_nil : forall u, path E 0 u u
  | path_cons : forall k u v w, E u v -> path E k v w -> path E (S k) u w.

  Lemma path_mono : forall (E E' : graph) k u w, (forall a b, E a b -> E' a b) -> path E k u w -> path E' k u w.
  Proof. intros E E' k u w H P. induction P; [constructor|econstructor; [apply H; eassumption|assumption]]. Qed.

  Lemma exchange_shortens : forall E k u w, path E (S (S k)) u w -> path (exchange E) (S k) u w.
  Proof.
    intros E k u w P. inversion P as [|? ? v ? Huv P1]; subst. inversion P1 as [|? ? x ? Hvx P2]; subst.
    econstructor; [right; exists v; split; eassumption|].
    apply (path_mono E); [intros a b Hab; left; exact Hab|exact P2].
  Qed.

  Fixpoint rounds (k : nat) (E : graph) : graph := match k with O => E | S j => rounds j (exchange E) end.

  (* C14-T4, the peer exchange as a closure of graphs: two nodes joined by a path of k+1 connections are directly connected
     after k exchange rounds: a connected set of n nodes is fully meshed after at most n-2 rounds *)
  Theorem exchange_closure : forall k E u w, path E (S k) u w -> path (rounds k E) 1 u w.
  Proof.
    induction k as [|k IH]; intros E u w P; [exact P|]. cbn [rounds]. apply IH. apply exchange_shortens. exact P.
  Qed.
End Closure.
