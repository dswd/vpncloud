(* C15: the housekeeping intervals computed from the configuration, and the reconnect back-off. *)
From VpnModel Require Import Base Interval.
From Coq Require Import ZifyBool ZifyNat.

Lemma minl_in : forall d l, l <> [] -> In (minl d l) l /\ forall x, In x l -> minl d l <= x.
Proof.
  intros d l. induction l as [|x t IH]; intros H; [congruence|].
  destruct t as [|y t'].
  - simpl. split; [left; reflexivity|]. intros z [Hz|[]]. lia.
  - assert (Hne : y :: t' <> []) by discriminate. destruct (IH Hne) as [I1 I2].
    change (minl d (x :: y :: t')) with (N.min x (minl d (y :: t'))).
    split.
    + destruct (N.min_spec x (minl d (y :: t'))) as [[_ ->]|[_ ->]]; [left; reflexivity|right; exact I1].
    + intros z [Hz|Hz]; [lia|]. specialize (I2 z Hz). lia.
Qed.

(* C15-T1: for every own setting (any update_freq a u16 can hold) and every non-empty set of
   advertised timeouts, the scheduled delay is at most one second or strictly below the smallest
   advertised timeout *)
Theorem interval_safe : forall upd advertised, advertised <> [] ->
  let i := announce_interval upd advertised in
  i <= 1 \/ (forall x, In x advertised -> i < x).
Proof.
  intros upd advertised Hne i. destruct (minl_in 300 advertised Hne) as [Hin Hmin].
  subst i. unfold announce_interval, sat_sub.
  set (m := minl 300 advertised) in *.
  destruct (m / 2 <? 60) eqn:E.
  - left. lia.
  - destruct (N.le_gt_cases (m / 2 - 60) 1) as [Hle|Hgt]; [left; lia|].
    right. intros x Hx. specialize (Hmin x Hx). lia.
Qed.

Theorem interval_no_peers : forall upd, announce_interval upd [] = N.min upd 90.
Proof. intros. reflexivity. Qed.

Theorem keepalive_default : forall pt, 1 <= get_keepalive pt None /\ (2 <= pt -> get_keepalive pt None < pt).
Proof. intros pt. unfold get_keepalive, sat_sub. destruct (pt / 2 <? 60) eqn:E; lia. Qed.

Definition backoff_ok (e : backoff) : Prop := 1 <= btimeout e <= 3600 /\ tries e <= 10.

(* C15-T4: reconnect back-off: interval always within [1, 3600], next attempt at most an hour away,
   the entry is rescheduled (never dropped) *)
Theorem backoff_step_ok : forall now e, backoff_ok e ->
  backoff_ok (backoff_step now e) /\
  ((bnext e <= now)%Z -> (now < bnext (backoff_step now e) <= now + 3600)%Z).
Proof.
  intros now e [[H1 H2] H3]. unfold backoff_step.
  destruct (now <? bnext e)%Z eqn:E; [split; [repeat split; assumption|lia]|].
  unfold backoff_ok, u16. destruct (10 <? tries e + 1) eqn:E2.
  - rewrite N.mod_small by lia. destruct (3600 <? btimeout e * 2) eqn:E3; cbn [tries btimeout bnext]; lia.
  - destruct (3600 <? btimeout e) eqn:E3; cbn [tries btimeout bnext]; lia.
Qed.

Theorem backoff0_ok : forall now, backoff_ok (backoff0 now).
Proof. intros. unfold backoff_ok, backoff0. simpl. lia. Qed.

Fixpoint backoff_run (e : backoff) (times : list Z) : backoff :=
  match times with [] => e | t :: r => backoff_run (backoff_step t e) r end.

Theorem backoff_run_ok : forall times e, backoff_ok e -> backoff_ok (backoff_run e times).
Proof. induction times as [|t r IH]; intros e H; [exact H|]. apply IH. apply backoff_step_ok. exact H. Qed.
