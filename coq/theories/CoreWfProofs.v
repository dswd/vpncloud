(* C03 / C04 at node level: the crypto core of every connection and handshake object of every reachable node state is well-formed
   (four key slots, sending slot in range) - the premise under which the window, nonce and tick theorems about a core apply.  An
   instance of PcInvariant.  Consequence: in every reachable state one housekeeping pass moves the replay window of every key
   slot of every peer (or re-keys the slot). *)
From VpnModel Require Import Base RangeMatch Table Nonce Replay Core CoreProofs Conn InitSteps PcSteps PeerCrypto NodeInfo Interval Node NodeProofs InitProofs TrustProofs SurviveProofs
  LockstepProofs Rotation2Proofs TickProofs NextHopProofs TickPeersProofs PcInvariant.

Definition owf (o : option core) : Prop := match o with Some c => wf_core c | None => True end.
Definition WFC (_ : ncfg) (p : peer_crypto) : Prop := owf (pc_core p) /\ (forall i, pc_init p = Some i -> owf (i_core i)).

Lemma init_decrypt_wf : forall ok o p, owf o -> owf (fst (init_decrypt ok o p)).
Proof.
  intros ok o p H. unfold init_decrypt. destruct o as [c|]; destruct p as [d|b]; cbn [owf] in *.
  - pose proof (wf_decrypt c d H) as K. destruct (core_decrypt c d) as [c1 [pl|e|s]]; exact K.
  - pose proof (wf_decrypt c (dgram_of_bytes b) H) as K. destruct (core_decrypt c (dgram_of_bytes b)) as [c1 x]. exact K.
  - exact I.
  - exact I.
Qed.

Lemma init_send_wf : forall s stage pub, owf (i_core s) -> owf (i_core (fst (init_send s stage pub))).
Proof.
  intros s stage pub H. unfold init_send. destruct (stage =? STAGE_PING); [exact H|].
  unfold init_encrypt_payload. destruct (i_core s) as [c|]; [|exact I].
  pose proof (wf_encrypt c (i_payload s) H) as K. destruct (core_encrypt c (i_payload s)) as [c' d]. exact K.
Qed.

Lemma handle_init_wf : forall ok s m, owf (i_core s) -> owf (i_core (fst (fst (handle_init ok s m)))).
Proof.
  intros ok s m H. rewrite handle_init_eq. destruct (hi_gate s m) as [e|rep|s0] eqn:G; [exact H..|].
  assert (H0 : owf (i_core s0)) by (destruct (hi_gate_accept s m s0 G) as (_ & _ & _ & [[_ ->]|(_ & _ & ->)]); exact H).
  (* the core of the new state is the old one or a new one for the agreed key, after at most one open and one seal *)
  assert (Hk : forall (s1 : init_state) ak hf d, i_core s1 = i_core s0 ->
            owf (match ak with Some _ => core_of_key s1 ak hf d | None => i_core s1 end)).
  { intros s1 [[a k]|] hf d E; [apply core_new_wf|rewrite E; exact H0]. }
  unfold hi_stage. destruct (im_stage m =? STAGE_PING); [|destruct (im_stage m =? STAGE_PONG)].
  - unfold hi_ping. destruct (select_algorithm _ _) as [alg|e|p]; [|exact H0..]. destruct (hi_key alg _ m) as [ak|]; [|exact H0].
    match goal with |- context [init_send ?s2 ?st ?pub] => pose proof (init_send_wf s2 st pub) as S; destruct (init_send s2 st pub) as [s3 reply] end.
    apply S, Hk. reflexivity.
  - unfold hi_pong. destruct (i_ecdh s0) as [priv|]; [|exact H0].
    destruct (select_algorithm _ _) as [alg|e|p]; [|exact H0..]. destruct (hi_key alg priv m) as [ak|]; [|exact H0].
    match goal with |- context [init_decrypt ok ?c ?p] => pose proof (init_decrypt_wf ok c p) as D; destruct (init_decrypt ok c p) as [c' [pl|]] end;
      [|apply D, Hk; reflexivity].
    match goal with |- context [init_send ?s2 ?st ?pub] => pose proof (init_send_wf s2 st pub) as S; destruct (init_send s2 st pub) as [s3 reply] end.
    apply S, D, Hk. reflexivity.
  - unfold hi_peng. pose proof (init_decrypt_wf ok (i_core s0) (peer_payload m) H0) as D.
    destruct (init_decrypt ok (i_core s0) (peer_payload m)) as [c' [pl|]]; exact D.
Qed.

Lemma apply_rotated_wf : forall c rk r, wf_core c -> wf_core (apply_rotated c rk r).
Proof. intros c rk r H. unfold apply_rotated. destruct rk as [k|]; [apply wf_rotate; exact H|exact H]. Qed.

Lemma omove_wf : forall o o', omove o o' -> owf o -> owf o'.
Proof.
  intros [c|] [c'|]; cbn; try tauto. intros M. induction M; intros H; auto using wf_encrypt, wf_decrypt, wf_tick, apply_rotated_wf.
Qed.

Lemma wfc_same : forall c p p', same_parts p p' -> WFC c p -> WFC c p'.
Proof. intros c p p' [E _ M] [H1 H2]. split; [exact (omove_wf _ _ M H1)|intros i Hi; rewrite E in Hi; exact (H2 i Hi)]. Qed.

Lemma wfc_new : forall n salt, WFC (n_cfg n) (snd (new_instance n salt)).
Proof. intros n salt. split; [exact I|]. intros i Hi. unfold new_instance, pc_new in Hi. cbn in Hi. inversion Hi. exact I. Qed.

Lemma wfc_initialize : forall c p, WFC c p -> WFC c (fst (pc_initialize p)).
Proof.
  intros c p [H1 H2]. destruct (pc_initialize_parts p) as [[-> _]|(i & Ei & _ & -> & _)]; [split; assumption|].
  split; [exact H1|]. intros i0 H0. injection H0 as <-. exact (H2 i Ei).
Qed.

Lemma wfc_seal : forall c p ty b, WFC c p -> WFC c (fst (pc_seal p ty b)).
Proof. intros c p ty b. apply wfc_same, pc_seal_parts. Qed.

Lemma wfc_handle : forall c ok p w, WFC c p -> WFC c (fst (fst (pc_handle ok p w))).
Proof.
  intros c ok p w [H1 H2]. split; [|exact (on_init_handle (fun i => owf (i_core i)) handle_init_wf (fun _ _ => I) ok p w H2)].
  (* the connection's core makes its own moves, or is taken over from the handshake object when that completes *)
  apply pc_handle_outcomes.
  - intros p' r [_ _ M] _. exact (omove_wf _ _ M H1).
  - intros. exact H1.
  - intros m i i' pl ini reply p' r x _ Ei Eh _ _ M _ _. pose proof (handle_init_wf ok i m (H2 i Ei)) as K. rewrite Eh in K. exact (omove_wf _ _ M K).
Qed.

Lemma wfc_tick : forall c p, WFC c p -> WFC c (fst (fst (pc_every_second p))).
Proof.
  intros c p [H1 H2]. destruct (pc_every_second_parts p) as (_ & M & Hi & _). split; [exact (omove_wf _ _ M H1)|].
  intros i Ei. destruct Hi as [E|(i0 & E0 & E)]; rewrite E in Ei; [discriminate Ei|]. injection Ei as <-.
  destruct (init_every_second_frame i0) as (_ & _ & -> & _). exact (H2 i0 E0).
Qed.

Theorem reachable_cores_wf : forall c salts t0 evs,
  let n := nrun salts (node_new c t0) evs in
  (forall a pd co, aget (n_peers n) a = Some pd -> pc_core (p_crypto pd) = Some co -> wf_core co) /\
  (forall a pc co, aget (n_pending n) a = Some pc -> pc_core pc = Some co -> wf_core co).
Proof.
  intros c salts t0 evs n. destruct (reachable_ap WFC wfc_new wfc_initialize wfc_handle wfc_tick wfc_seal c salts t0 evs) as (_ & Hq & Hp). fold n in Hq, Hp.
  split.
  - intros a pd co Ha Hc. destruct (Hp a pd Ha) as [K _]. rewrite Hc in K. exact K.
  - intros a pc co Ha Hc. destruct (Hq a pc Ha) as [K _]. rewrite Hc in K. exact K.
Qed.

(* C03, node level, closing the chain: in every reachable state, one housekeeping pass over the peers moves the replay window of every
   key slot of every encrypted peer connection (or re-keys the slot: fresh window) *)
Theorem reachable_housekeeping_moves_every_window : forall c salts t0 evs a pd co,
  let n := nrun salts (node_new c t0) evs in
  aget (n_peers n) a = Some pd -> pc_core (p_crypto pd) = Some co ->
  exists pd' co', aget (n_peers (fst (fst (tick_peers n)))) a = Some pd' /\ pc_core (p_crypto pd') = Some co' /\ wf_core co' /\
    forall i, i < 4 -> s_win (get_slot co' i) = tick (s_win (get_slot co i)) \/ s_win (get_slot co' i) = win0.
Proof.
  intros c salts t0 evs a pd co n Ha Hc.
  destruct (reachable_cores_wf c salts t0 evs) as [Hwf _]. fold n in Hwf. specialize (Hwf a pd co Ha Hc).
  pose proof (reachable_tick_peers_once salts c t0 evs a) as Ht. fold n in Ht. rewrite Ha in Ht. cbn [option_map] in Ht.
  destruct (every_second_ticks_windows (p_crypto pd) co Hc Hwf) as (co' & Hc' & Hw' & Hticks).
  exists (tick_pd pd), co'. split; [exact Ht|]. split; [exact Hc'|]. split; [exact Hw'|exact Hticks].
Qed.

(* non-vacuity: the example state's peer has an encrypted connection *)
Lemma ex_peer_has_core : exists pd co, aget (n_peers ex_b) 1001 = Some pd /\ pc_core (p_crypto pd) = Some co.
Proof. vm_compute. eexists. eexists. split; reflexivity. Qed.
