(* C18: keys printed by key generation or derived from a password are accepted back and give the same key pair. *)
From VpnModel Require Import Base BaseProofs Base62 Base62Proofs Keys.

(* C18-T1: every 32-byte key printed by key generation is accepted back and denotes the same bytes,
   leading zero bytes included *)
Theorem accept_generated : forall key, all_bytes key -> length key = 32%nat ->
  exists text, to_base62 key = Ok text /\ parse_key32 text = Ok key.
Proof.
  intros key Hb Hl. destruct (base62_roundtrip key Hb) as (s & H1 & H2). exists s. split; [exact H1|].
  unfold parse_key32. rewrite H2. unfold pad32.
  pose proof (strip0_spec_len key) as Hs.
  assert (Nat.ltb 32 (length (strip0 key)) = false) as -> by (apply Nat.ltb_ge; lia).
  rewrite <- Hl. rewrite strip0_pad. reflexivity.
Qed.

Theorem parse_key32_total : forall text, is_panic (parse_key32 text) = false.
Proof.
  intros text. unfold parse_key32. pose proof (from_base62_total text) as H.
  destruct (from_base62 text) as [b|c|s]; [|reflexivity|discriminate].
  unfold pad32. destruct (32 <? length b)%nat; reflexivity.
Qed.

Lemma pad32_len : forall b k, pad32 b = Ok k -> length k = 32%nat.
Proof.
  intros b k. unfold pad32. destruct (Nat.ltb 32 (length b)) eqn:E; [discriminate|]. intros H.
  apply Nat.ltb_ge in E.
  assert (Hk : k = zeros (32 - length b) ++ b) by congruence.
  rewrite Hk, app_length, zeros_length. lia.
Qed.

Theorem parse_key32_len : forall text k, parse_key32 text = Ok k -> length k = 32%nat.
Proof.
  intros text k H. unfold parse_key32 in H. destruct (from_base62 text) as [b|c|s]; try discriminate.
  eapply pad32_len. exact H.
Qed.

Section WithOracles.
  Variable kdf : bytes -> bytes.
  Variable pk_of : bytes -> bytes.
  Hypothesis pk_len : forall s, length (pk_of s) = 32%nat /\ all_bytes (pk_of s).

  (* C18-T2: password only -> the key pair is a function of the password (hence equal on every node
     and run); the printed pair is accepted as private/public key and selects the same keys *)
  Theorem password_keys : forall pw,
    crypto_new kdf pk_of {| cfg_password := Some pw; cfg_private := None; cfg_public := None; cfg_trusted := [] |}
    = Ok (kdf pw, pk_of (kdf pw), [pk_of (kdf pw)]).
  Proof. intros. reflexivity. Qed.

  Theorem printed_pair_accepted : forall seed, all_bytes seed -> length seed = 32%nat ->
    exists tpriv tpub,
      print_keypair pk_of seed = (Ok tpriv, Ok tpub) /\
      crypto_new kdf pk_of {| cfg_password := None; cfg_private := Some tpriv; cfg_public := Some tpub; cfg_trusted := [tpub] |}
        = Ok (seed, pk_of seed, [pk_of seed]) /\
      crypto_new kdf pk_of {| cfg_password := None; cfg_private := Some tpriv; cfg_public := None; cfg_trusted := [] |}
        = Ok (seed, pk_of seed, [pk_of seed]).
  Proof.
    intros seed Hb Hl. destruct (pk_len seed) as [Pl Pb].
    destruct (accept_generated seed Hb Hl) as (tpriv & T1 & T2).
    destruct (accept_generated (pk_of seed) Pb Pl) as (tpub & U1 & U2).
    exists tpriv, tpub. unfold print_keypair. rewrite T1, U1. split; [reflexivity|].
    unfold crypto_new. cbn [cfg_private cfg_public cfg_password cfg_trusted]. rewrite T2, U2.
    rewrite list_eqb_refl. split; reflexivity.
  Qed.

  (* C18-T3: two password-only nodes trust each other iff the derived public keys are equal *)
  Theorem password_trust : forall p1 p2 s1 k1 t1 s2 k2 t2,
    crypto_new kdf pk_of {| cfg_password := Some p1; cfg_private := None; cfg_public := None; cfg_trusted := [] |} = Ok (s1, k1, t1) ->
    crypto_new kdf pk_of {| cfg_password := Some p2; cfg_private := None; cfg_public := None; cfg_trusted := [] |} = Ok (s2, k2, t2) ->
    (In k2 t1 <-> k1 = k2) /\ (In k1 t2 <-> k1 = k2).
  Proof.
    intros p1 p2 s1 k1 t1 s2 k2 t2 H1 H2. rewrite password_keys in H1, H2. inversion H1; inversion H2; subst.
    split; split; intros H; try (destruct H as [H|[]]; congruence); left; congruence.
  Qed.
End WithOracles.
