(* C07 for two connected ends (`rend`: rotation state and crypto core): exchanging rotation messages over a lossy, reordering,
   duplicating channel they keep an invariant under which the sender's key is always one the receiver holds. *)
From VpnModel Require Import Base BaseProofs Core CoreProofs Conn PeerCrypto PcSteps Rotation2.

Lemma dh_name_sym : forall a b, dh_name a b = dh_name b a.
Proof. intros. unfold dh_name. rewrite N.min_comm, N.max_comm. reflexivity. Qed.

Lemma ecdh_pub_ok : forall p q, ecdh p (ecdh_pub q) = Some (dh_name (p mod 2 ^ 256) (q mod 2 ^ 256)).
Proof.
  intros p q. unfold ecdh, ecdh_pub. rewrite be_enc_length. cbn [Nat.eqb]. rewrite be_val_be_enc.
  change (256 ^ N.of_nat 32) with (2 ^ 256). reflexivity.
Qed.

Lemma ecdh_sym : forall p q, ecdh p (ecdh_pub q) = ecdh q (ecdh_pub p).
Proof. intros. rewrite !ecdh_pub_ok, dh_name_sym. reflexivity. Qed.

Definition key_at (e : rend) (i : N) : N := s_key (get_slot (e_core e) i).

Lemma cur_encrypt : forall c p, current (fst (core_encrypt c p)) = current c.
Proof. intros. reflexivity. Qed.

Definition same_keys (c c' : core) : Prop :=
  wf_core c' /\ current c' = current c /\ forall i, s_key (get_slot c' i) = s_key (get_slot c i).

Lemma same_keys_tick : forall c, wf_core c -> same_keys c (core_tick c).
Proof.
  intros c H. split; [apply wf_tick, H|]. split; [reflexivity|]. intros i. rewrite tick_all_slots.
  destruct (N.to_nat i <? length (slots c))%nat; reflexivity.
Qed.

Lemma same_keys_encrypt : forall c p, wf_core c -> same_keys c (fst (core_encrypt c p)).
Proof. intros c p H. destruct (enc_preserves c p H) as (W & C & _ & K). split; [exact W|]. split; [exact C|]. intros i. apply K. Qed.

Lemma rend_eta : forall e, {| e_rot := e_rot e; e_core := e_core e; e_fresh := e_fresh e |} = e.
Proof. intros []. reflexivity. Qed.

Lemma deliver_stale : forall e m, rm_id m <= r_mid (e_rot e) -> rend_deliver e m = Ok e.
Proof.
  intros e m H. unfold rend_deliver, rot_process. rewrite (proj2 (N.leb_le _ _) H). cbn [apply_rotated].
  rewrite rend_eta. reflexivity.
Qed.

Lemma in_snoc_ind : forall A (P : A -> Prop) l y, (forall x, In x l -> P x) -> P y -> forall x, In x (l ++ [y]) -> P x.
Proof. intros A P l y Hl Hy x Hin. apply in_app_or in Hin. destruct Hin as [Hin|[<-|[]]]; [exact (Hl x Hin)|exact Hy]. Qed.

(* The invariant.  Rotation messages carry the ids 1, 2, 3, ... and come from the two ends in turn.  n is the
   id of the newest message, S its sender, R the other end, whose own last message was n-1; `seen` says whether
   R has processed message n.  S has a proposal p outstanding and, until message n+1 arrives, re-sends
   Mn = (n, public key of p, its confirmation of R's proposal).  The key agreed through the proposal in message
   j-1 and the confirmation in message j has id j and lives in slot j mod 4; ids 0 and 1 stand for the handshake
   key in slot 0 (cur_of).  S seals with key n-1, which R holds (sh_key1).  R seals with key n-2 until it sees
   message n and with key n from then on; S installed that key for receiving when it sent message n (sh_unseen
   has the agreement before, sh_key2 after).  Having seen message n, R keeps the next key as pending (sh_seen),
   and its next cycle makes it the sender of message n+1. *)
Definition cur_of (j : N) : N := if j <? 2 then 0 else j mod 4.

Definition Mn (S : rend) (n p : N) : rot_msg :=
  {| rm_id := n; rm_propose := ecdh_pub p; rm_confirm := option_map fst (r_confirmed (e_rot S)) |}.

Record Shape (n : N) (seen : bool) (S R : rend) (toS toR : list rot_msg) : Prop := mkShape {
  sh_n : 1 <= n;
  sh_wfS : wf_core (e_core S);
  sh_wfR : wf_core (e_core R);
  sh_smid : r_mid (e_rot S) = n;
  sh_rmid : r_mid (e_rot R) = n - 1;
  sh_sprop : exists p, r_proposed (e_rot S) = Some p /\ (forall m, In m toR -> rm_id m = n -> m = Mn S n p);
  sh_sconf : (n = 1 /\ r_confirmed (e_rot S) = None) \/ (2 <= n /\ exists ck, r_confirmed (e_rot S) = Some (ck, n));
  sh_toR : forall m, In m toR -> rm_id m <= n;
  sh_toS : forall m, In m toS -> rm_id m <= n;
  sh_scur : current (e_core S) = cur_of (n - 1);
  sh_rcur : current (e_core R) = if seen then cur_of n else cur_of (n - 2);
  sh_key1 : key_at S (current (e_core S)) = key_at R (current (e_core S));
  sh_key2 : key_at R (current (e_core R)) = key_at S (current (e_core R));
  sh_unseen : seen = false ->
    (n = 1 /\ r_proposed (e_rot R) = None /\ r_pending (e_rot R) = None) \/
    (2 <= n /\ exists p' ck, r_proposed (e_rot R) = Some p' /\ r_confirmed (e_rot S) = Some (ck, n) /\
                 ecdh p' ck = Some (key_at S (n mod 4)));
  sh_rconf : forall p', r_proposed (e_rot R) = Some p' ->
    (n = 2 /\ r_confirmed (e_rot R) = None) \/ (3 <= n /\ exists ck, r_confirmed (e_rot R) = Some (ck, n - 1));
  sh_seen : seen = true ->
    r_proposed (e_rot R) = None /\
    exists k q, r_pending (e_rot R) = Some (k, q) /\ forall p, r_proposed (e_rot S) = Some p -> ecdh p q = Some k
}.

Definition Inv (s : rsys) : Prop :=
  exists n seen, Shape n seen (ea s) (eb s) (to_a s) (to_b s) \/ Shape n seen (eb s) (ea s) (to_b s) (to_a s).

Lemma cur_of_lt4 : forall j, cur_of j < 4.
Proof. intros j. unfold cur_of. destruct (j <? 2); lia. Qed.

Lemma cur_of_ge2 : forall j, 2 <= j -> cur_of j = j mod 4.
Proof. intros j H. unfold cur_of. rewrite (proj2 (N.ltb_ge _ _) H). reflexivity. Qed.

Lemma slot_distinct : forall i j, i < j <= i + 2 -> cur_of i <> j mod 4.
Proof. intros i j H. unfold cur_of. destruct (i <? 2) eqn:E; lia. Qed.

Lemma shape_toS : forall n seen S R toS toR m, Shape n seen S R toS toR -> rm_id m <= n ->
  Shape n seen S R (toS ++ [m]) toR.
Proof. intros n seen S R toS toR m H Hm. destruct H. constructor; try assumption. apply in_snoc_ind; assumption. Qed.

Lemma shape_toR : forall n seen S R toS toR p, Shape n seen S R toS toR -> r_proposed (e_rot S) = Some p ->
  Shape n seen S R toS (toR ++ [Mn S n p]).
Proof.
  intros n seen S R toS toR p H Hp. destruct H. constructor; try assumption.
  - destruct sh_sprop0 as (p0 & Hp0 & Hm). rewrite Hp in Hp0. injection Hp0 as <-. exists p. split; [exact Hp|].
    apply (in_snoc_ind _ (fun m => rm_id m = n -> m = Mn S n p)); [exact Hm|reflexivity].
  - apply in_snoc_ind; [exact sh_toR0|apply N.le_refl].
Qed.

(* C07-T2: the end that is ahead ignores whatever is delivered to it, duplicates and stale messages alike *)
Theorem duplicate_harmless_S : forall n seen S R toS toR m, Shape n seen S R toS toR -> In m toS ->
  rend_deliver S m = Ok S.
Proof.
  intros n seen S R toS toR m H Hin. apply deliver_stale. rewrite (sh_smid _ _ _ _ _ _ H). exact (sh_toS _ _ _ _ _ _ H m Hin).
Qed.

(* a cycle of S only sets the timeout flag or re-sends exactly M_n *)
Lemma S_cycle : forall n seen S R toS toR, Shape n seen S R toS toR ->
  Shape n seen (fst (rend_cycle S)) R toS (app_opt toR (snd (rend_cycle S))).
Proof.
  intros n seen S R toS toR H. destruct (sh_sprop _ _ _ _ _ _ H) as (p & Hp & _).
  unfold rend_cycle, rot_cycle. rewrite Hp.
  destruct (r_timeout (e_rot S)); cbn [fst snd apply_rotated app_opt].
  - rewrite rend_eta. pose proof (shape_toR _ _ _ _ _ _ p H Hp) as H'. unfold Mn in H'.
    destruct (sh_sconf _ _ _ _ _ _ H) as [[-> Hc]|[_ (ck & Hc)]]; rewrite Hc in H' |- *; exact H'.
  - (* no field mentions the timeout flag *)
    rewrite <- Hp. destruct H. constructor; assumption.
Qed.

Lemma R_deliver : forall n seen S R toS toR m, Shape n seen S R toS toR -> In m toR ->
  exists R' seen', rend_deliver R m = Ok R' /\ Shape n seen' S R' toS toR /\ (rm_id m = n -> seen' = true).
Proof.
  intros n seen S R toS toR m H Hin. destruct (N.eq_dec (rm_id m) n) as [Hid|Hid].
  2: { exists R, seen. split; [|split; [exact H|contradiction]]. apply deliver_stale.
       rewrite (sh_rmid _ _ _ _ _ _ H). pose proof (sh_toR _ _ _ _ _ _ H m Hin). lia. }
  destruct H. pose proof sh_sprop0 as (p & Hp & Hm). rewrite (Hm m Hin Hid).
  unfold rend_deliver, rot_process. cbn [Mn rm_id rm_propose rm_confirm].
  rewrite (proj2 (N.leb_gt _ _)) by lia. rewrite ecdh_pub_ok.
  set (fr := e_fresh R). set (k := dh_name (fr mod 2 ^ 256) (p mod 2 ^ 256)).
  (* in every case R notes the key derived from the proposal, which is the one S will derive *)
  assert (Hpend : exists k0 q, Some (k, ecdh_pub fr) = Some (k0, q) /\
                    forall p0, r_proposed (e_rot S) = Some p0 -> ecdh p0 q = Some k0).
  { exists k, (ecdh_pub fr). split; [reflexivity|]. intros p0 E. rewrite Hp in E. injection E as <-.
    rewrite ecdh_pub_ok. unfold k. rewrite dh_name_sym. reflexivity. }
  destruct seen; [destruct (sh_seen0 eq_refl) as (Hrp & _)|
    destruct (sh_unseen0 eq_refl) as [(-> & Hrp & _)|(Hn2 & p' & ck & Hrp & Hsc & Hdh)]]; rewrite Hrp.
  1, 2: (* seen already, or n = 1: R has no proposal of its own to be confirmed; only the pending entry changes *)
    eexists _, true; (split; [destruct (option_map fst (r_confirmed (e_rot S))); reflexivity|]); (split; [|reflexivity]);
    constructor; try (assumption || discriminate); intros _; split; [reflexivity|exact Hpend].
  (* n >= 2, unseen: the confirmation yields the key S installed under id n; R starts sealing with it *)
  rewrite Hsc. cbn [option_map fst]. rewrite Hdh. eexists _, true. split; [reflexivity|]. split; [|reflexivity].
  cbn [apply_rotated rk_key rk_id rk_use].
  destruct (rotate_fresh_window (e_core R) (key_at S (n mod 4)) n true rnd0 sh_wfR0) as (G1 & G2 & G3).
  constructor; unfold key_at in *; cbn [e_core]; try (assumption || discriminate).
  - apply wf_rotate, sh_wfR0.
  - rewrite G3. symmetry. apply cur_of_ge2, Hn2.
  - rewrite G2 by (rewrite sh_scur0; apply slot_distinct; lia). exact sh_key3.
  - rewrite G3, G1. reflexivity.
  - intros _. split; [reflexivity|exact Hpend].
Qed.

Lemma R_cycle_seen : forall n S R toS toR, Shape n true S R toS toR ->
  exists R' m, rend_cycle R = (R', Some m) /\ rm_id m = n + 1 /\ Shape (n + 1) false R' S toR (toS ++ [m]).
Proof.
  intros n S R toS toR H. destruct H.
  destruct (sh_seen0 eq_refl) as (Hrp & k & q & Hpend & Hk). destruct sh_sprop0 as (p & Hp & _).
  unfold rend_cycle, rot_cycle. rewrite Hrp, Hpend, sh_rmid0. replace (n - 1 + 2) with (n + 1) by lia.
  eexists _, _. split; [reflexivity|]. split; [reflexivity|]. cbn [apply_rotated rk_key rk_id rk_use].
  destruct (rotate_fresh_window (e_core R) k (n + 1) false rnd0 sh_wfR0) as (G1 & G2 & G3).
  set (R' := Build_rend _ _ _).
  apply (shape_toR (n + 1) false R' S toR toS (e_fresh R)); [|reflexivity].
  constructor; unfold key_at in *; cbn [R' e_core]; rewrite ?N.add_sub; try (assumption || discriminate).
  - lia.
  - apply wf_rotate, sh_wfR0.
  - reflexivity.
  - exists (e_fresh R). split; [reflexivity|]. intros m Hin. pose proof (sh_toS0 m Hin). lia.
  - right. split; [lia|]. exists q. reflexivity.
  - intros m Hin. pose proof (sh_toS0 m Hin). lia.
  - intros m Hin. pose proof (sh_toR0 m Hin). lia.
  - rewrite sh_scur0. f_equal. lia.
  - rewrite G3, G2 by (rewrite sh_rcur0; apply slot_distinct; lia). exact sh_key4.
  - rewrite G2 by (rewrite sh_scur0; apply slot_distinct; lia). exact sh_key3.
  - intros _. right. split; [lia|]. exists p, q. split; [exact Hp|]. split; [reflexivity|]. rewrite G1. exact (Hk p Hp).
  - intros p' _. destruct sh_sconf0 as [[-> Hc]|[Hn2 Hc]]; [left; split; [reflexivity|exact Hc]|right; split; [lia|exact Hc]].
Qed.

Lemma R_cycle_unseen : forall n S R toS toR, Shape n false S R toS toR ->
  Shape n false S (fst (rend_cycle R)) (app_opt toS (snd (rend_cycle R))) toR.
Proof.
  intros n S R toS toR H. unfold rend_cycle, rot_cycle.
  destruct (sh_unseen _ _ _ _ _ _ H eq_refl) as [(Hn1 & Hrp & Hrpend)|(Hn2 & p' & ck & Hrp & Hsc & Hdh)].
  - (* still waiting for message 1: nothing happens *)
    rewrite Hrp, Hrpend. cbn [fst snd apply_rotated app_opt]. rewrite rend_eta. exact H.
  - rewrite Hrp. destruct (r_timeout (e_rot R)); cbn [fst snd apply_rotated app_opt].
    + (* re-send of R's own last message: id n-1, ignored by S *)
      rewrite rend_eta. apply shape_toS; [exact H|].
      destruct (sh_rconf _ _ _ _ _ _ H p' Hrp) as [[Hn Hc]|[Hn (ck' & Hc)]]; rewrite Hc; cbn [rm_id]; lia.
    + rewrite <- Hrp. destruct H. constructor; assumption.
Qed.

Lemma shape_core : forall n seen S R toS toR c, Shape n seen S R toS toR ->
  (same_keys (e_core S) c -> Shape n seen (with_core S c) R toS toR) /\
  (same_keys (e_core R) c -> Shape n seen S (with_core R c) toS toR).
Proof.
  intros n seen S R toS toR c H. split; intros (Hwf & Hcur & Hkey);
    destruct H; constructor; unfold key_at in *; cbn [with_core e_core]; rewrite ?Hcur, ?Hkey; assumption.
Qed.

Lemma inv_init : forall k0 da db fa fb ha, Inv (rsys_init k0 da db fa fb ha).
Proof.
  intros. exists 1, false. left. unfold rsys_init, rot_new. cbn [ea eb to_a to_b app_opt app].
  constructor; try (reflexivity || discriminate); try apply core_new_wf.
  - exists fa. split; [reflexivity|]. intros m [<-|[]] _. reflexivity.
  - left. split; reflexivity.
  - intros m [<-|[]]. apply N.le_refl.
  - intros m [].
  - intros _. left. repeat split; reflexivity.
Qed.

(* the two ends are interchangeable *)
Definition swap (s : rsys) : rsys := {| ea := eb s; eb := ea s; to_a := to_b s; to_b := to_a s |}.

Definition flip (o : rstep) : rstep :=
  match o with
  | RCycleA => RCycleB | RCycleB => RCycleA
  | RDeliverA k => RDeliverB k | RDeliverB k => RDeliverA k
  | RTickA => RTickB | RTickB => RTickA
  | RSealA p => RSealB p | RSealB p => RSealA p
  end.

Lemma step_swap : forall s o, rsys_step (swap s) (flip o) = (swap (fst (rsys_step s o)), snd (rsys_step s o)).
Proof.
  intros s o. destruct o as [| | k | k | | | p | p]; cbn [rsys_step flip swap ea eb to_a to_b]; try reflexivity.
  - destruct (rend_cycle (ea s)). reflexivity.
  - destruct (rend_cycle (eb s)). reflexivity.
  - destruct (nth_error (to_a s) k) as [m|]; [destruct (rend_deliver (ea s) m)|]; reflexivity.
  - destruct (nth_error (to_b s) k) as [m|]; [destruct (rend_deliver (eb s) m)|]; reflexivity.
Qed.

Lemma inv_swap : forall s, Inv (swap s) -> Inv s.
Proof. intros s (n & seen & H). exists n, seen. apply or_comm. exact H. Qed.

Lemma shape_step : forall n seen s o, Shape n seen (ea s) (eb s) (to_a s) (to_b s) ->
  snd (rsys_step s o) = false /\ Inv (fst (rsys_step s o)).
Proof.
  intros n seen s o H. destruct o as [| | k | k | | | p | p]; cbn [rsys_step].
  - pose proof (S_cycle _ _ _ _ _ _ H) as H'. destruct (rend_cycle (ea s)) as [e m].
    split; [reflexivity|]. exists n, seen. left. exact H'.
  - destruct seen.
    + destruct (R_cycle_seen _ _ _ _ _ H) as (R' & m & E & _ & H'). rewrite E.
      split; [reflexivity|]. exists (n + 1), false. right. exact H'.
    + pose proof (R_cycle_unseen _ _ _ _ _ H) as H'. destruct (rend_cycle (eb s)) as [e m].
      split; [reflexivity|]. exists n, false. left. exact H'.
  - destruct (nth_error (to_a s) k) as [m|] eqn:En; [rewrite (duplicate_harmless_S _ _ _ _ _ _ m H (nth_error_In _ _ En))|];
      (split; [reflexivity|]); exists n, seen; left; exact H.
  - destruct (nth_error (to_b s) k) as [m|] eqn:En; [|split; [reflexivity|exists n, seen; left; exact H]].
    destruct (R_deliver _ _ _ _ _ _ m H (nth_error_In _ _ En)) as (R' & seen' & E & H' & _). rewrite E.
    split; [reflexivity|]. exists n, seen'. left. exact H'.
  - split; [reflexivity|]. exists n, seen. left. apply (shape_core _ _ _ _ _ _ _ H), same_keys_tick, (sh_wfS _ _ _ _ _ _ H).
  - split; [reflexivity|]. exists n, seen. left. apply (shape_core _ _ _ _ _ _ _ H), same_keys_tick, (sh_wfR _ _ _ _ _ _ H).
  - split; [reflexivity|]. exists n, seen. left. apply (shape_core _ _ _ _ _ _ _ H), same_keys_encrypt, (sh_wfS _ _ _ _ _ _ H).
  - split; [reflexivity|]. exists n, seen. left. apply (shape_core _ _ _ _ _ _ _ H), same_keys_encrypt, (sh_wfR _ _ _ _ _ _ H).
Qed.

(* C07-T1 core: every step preserves the invariant and never hits the agree_ephemeral unwrap *)
Theorem inv_step : forall s o, Inv s -> snd (rsys_step s o) = false /\ Inv (fst (rsys_step s o)).
Proof.
  intros s o (n & seen & [H|H]); [exact (shape_step n seen s o H)|].
  destruct (shape_step n seen (swap s) (flip o) H) as [Hp Hi]. rewrite step_swap in Hp, Hi.
  split; [exact Hp|exact (inv_swap _ Hi)].
Qed.

Theorem inv_run : forall ops s, Inv s -> snd (rsys_run s ops) = false /\ Inv (fst (rsys_run s ops)).
Proof.
  induction ops as [|o t IH]; intros s H; [split; [reflexivity|exact H]|].
  cbn [rsys_run]. destruct (inv_step s o H) as [Hp Hi]. destruct (rsys_step s o) as [s' p]. cbn [fst snd] in *. subst p. apply IH. exact Hi.
Qed.

Lemma inv_keys : forall s, Inv s ->
  send_key (ea s) = held_key (eb s) (ea s) /\ send_key (eb s) = held_key (ea s) (eb s).
Proof. intros s (n & seen & [H|H]); destruct H; split; assumption. Qed.

(* C07-T1: at every instant of every schedule the key an end currently seals with is held by its
   peer under that key id with identical key material *)
Theorem send_key_held : forall k0 da db fa fb ha ops,
  let s := fst (rsys_run (rsys_init k0 da db fa fb ha) ops) in
  snd (rsys_run (rsys_init k0 da db fa fb ha) ops) = false /\
  send_key (ea s) = held_key (eb s) (ea s) /\ send_key (eb s) = held_key (ea s) (eb s).
Proof.
  intros. destruct (inv_run ops _ (inv_init k0 da db fa fb ha)) as [Hp Hi]. exact (conj Hp (inv_keys _ Hi)).
Qed.

(* C07-T3/T4: progress.  Once the receiver of message n has processed it, its next cycle emits message
   n+1 (installing the new key for receiving), and as soon as that message arrives the other end
   seals with key id n+1: one full key change per direction every two cycles while messages get
   through.  A lost message is re-sent in the sender's second following cycle (S_cycle) and the
   invariant holds meanwhile (inv_step). *)
Theorem progress : forall n S R toS toR, Shape n true S R toS toR ->
  exists m R' S', rend_cycle R = (R', Some m) /\ rm_id m = n + 1 /\
    rend_deliver S m = Ok S' /\ Shape (n + 1) true R' S' toR (toS ++ [m]) /\
    current (e_core S') = (n + 1) mod 4.
Proof.
  intros n S R toS toR H. destruct (R_cycle_seen _ _ _ _ _ H) as (R' & m & Hc & Hid & HC).
  destruct (R_deliver _ _ _ _ _ _ m HC (in_elt m toS [])) as (S' & seen' & E & H' & Hs).
  rewrite (Hs Hid) in H'. exists m, R', S'. split; [exact Hc|]. split; [exact Hid|]. split; [exact E|]. split; [exact H'|].
  rewrite (sh_rcur _ _ _ _ _ _ H'). apply cur_of_ge2. pose proof (sh_n _ _ _ _ _ _ H). lia.
Qed.

Lemma pc_seal_keeps : forall p ty b, pc_rot (fst (pc_seal p ty b)) = pc_rot p /\ pc_counter (fst (pc_seal p ty b)) = pc_counter p.
Proof. intros p ty b. destruct (pc_seal_cases p ty b) as [(_ & ->)|[(_ & _ & ->)|(_ & c & _ & ->)]]; split; reflexivity. Qed.

(* C07-T5: PeerCrypto::every_second runs a rotation cycle exactly when its counter reaches 120 *)
Theorem counter_cycles : forall p rs,
  pc_init p = None -> pc_rot p = Some rs ->
  let p' := fst (fst (pc_every_second p)) in
  (pc_counter p + 1 <? ROTATE_INTERVAL = true ->
     pc_rot p' = Some rs /\ pc_counter p' = pc_counter p + 1 /\ snd (pc_every_second p) = None) /\
  (pc_counter p + 1 <? ROTATE_INTERVAL = false ->
     pc_counter p' = 0 /\ pc_rot p' = Some (fst (fst (fst (rot_cycle rs (pc_fresh p)))))).
Proof.
  intros p rs Hi Hr. unfold pc_every_second. rewrite Hi, Hr. cbn zeta.
  destruct (pc_counter p + 1 <? ROTATE_INTERVAL) eqn:E.
  - split; [intros _|intros Hf; discriminate]. cbn [fst snd pc_set pc_rot pc_counter]. repeat split; reflexivity.
  - split; [intros Hf; discriminate|intros _].
    destruct (rot_cycle rs (pc_fresh p)) as [[[rs' rm] rk] fr] eqn:Ec. cbn [fst snd].
    destruct rk as [k|]; destruct (option_map core_tick (pc_core p)) as [c1|]; destruct rm as [m|];
      cbn [fst snd option_map pc_set pc_rot pc_counter];
      try (split; reflexivity);
      match goal with
      | |- context [pc_seal ?q ?t ?b] =>
          pose proof (pc_seal_keeps q t b) as [K1 K2]; destruct (pc_seal q t b) as [p3 [w|e|pn]]; cbn [fst snd] in *;
          rewrite K1, K2; split; reflexivity
      end.
Qed.
