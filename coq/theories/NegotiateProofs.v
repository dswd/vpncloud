(* C06: which cipher select_algorithm picks - plain iff both allow it, else the common cipher whose slower side is fastest, the same
   at both ends and for every order of the lists. *)
From VpnModel Require Import Base Conn.
From Coq Require Import ZifyBool Permutation.

Definition ids (l : list (N * N)) : list N := map fst l.

Lemma in_ids : forall a l, In a (ids l) <-> exists s, In (a, s) l.
Proof.
  intros a l. unfold ids. rewrite in_map_iff. split.
  - intros ([a' s] & <- & H). exists s. exact H.
  - intros [s H]. exists (a, s). split; [reflexivity|exact H].
Qed.

Lemma find_algo_in : forall a l s, find_algo a l = Some s -> In (a, s) l.
Proof.
  induction l as [|[a' s'] t IH]; intros s H; simpl in H; [discriminate|].
  destruct (a =? a') eqn:E; [inversion H; subst; apply N.eqb_eq in E; subst; left; reflexivity|right; apply IH; exact H].
Qed.

Lemma find_algo_nodup : forall a s l, NoDup (ids l) -> In (a, s) l -> find_algo a l = Some s.
Proof.
  induction l as [|[a' s'] t IH]; intros Hn Hin; [destruct Hin|].
  simpl in Hn. inversion Hn as [|? ? Hnot Hn']; subst. simpl. destruct Hin as [Hin|Hin].
  - inversion Hin; subst. rewrite N.eqb_refl. reflexivity.
  - destruct (a =? a') eqn:E; [|apply IH; assumption].
    apply N.eqb_eq in E. subst. destruct Hnot. apply in_ids. exists s. exact Hin.
Qed.

Lemma find_algo_none : forall a l, find_algo a l = None -> ~ In a (ids l).
Proof.
  induction l as [|[a' s'] t IH]; intros H Hin; [destruct Hin|]. simpl in H.
  destruct (a =? a') eqn:E; [discriminate|]. destruct Hin as [Hin|Hin]; [simpl in Hin; subst; rewrite N.eqb_refl in E; discriminate|].
  exact (IH H Hin).
Qed.

Definition minsp (s1 s2 : N) : N := if s1 <? s2 then s1 else s2.

Lemma candidates_flat : forall own peer,
  candidates own peer =
  flat_map (fun x => match find_algo (fst x) peer with Some s2 => [(fst x, minsp (snd x) s2)] | None => [] end) own.
Proof.
  induction own as [|[a s1] t IH]; intros peer; [reflexivity|].
  cbn [candidates flat_map fst snd]. rewrite <- IH. destruct (find_algo a peer); reflexivity.
Qed.

Lemma candidates_spec : forall own peer, NoDup (ids peer) ->
  forall a s, In (a, s) (candidates own peer) <-> exists s1 s2, In (a, s1) own /\ In (a, s2) peer /\ s = minsp s1 s2.
Proof.
  intros own peer Hp a s. rewrite candidates_flat, in_flat_map. split.
  - intros ([a1 s1] & Hin & H). cbn [fst snd] in H. destruct (find_algo a1 peer) as [s2|] eqn:Ef; [|destruct H].
    destruct H as [H|[]]. injection H as <- <-. exists s1, s2. split; [exact Hin|]. split; [apply find_algo_in, Ef|reflexivity].
  - intros (s1 & s2 & H1 & H2 & ->). exists (a, s1). split; [exact H1|].
    cbn [fst snd]. rewrite (find_algo_nodup a s2 peer Hp H2). left. reflexivity.
Qed.

Lemma common_candidate : forall own peer a,
  In a (ids own) /\ In a (ids peer) <-> exists s, In (a, s) (candidates own peer).
Proof.
  intros own peer a. rewrite candidates_flat. setoid_rewrite in_flat_map. rewrite in_ids. split.
  - intros [[s1 H1] H2]. destruct (find_algo a peer) as [s2|] eqn:Ef; [|destruct (find_algo_none a peer Ef H2)].
    exists (minsp s1 s2), (a, s1). cbn [fst snd]. rewrite Ef. split; [exact H1|left; reflexivity].
  - intros (s & [a1 s1] & Hin & H). cbn [fst snd] in H. destruct (find_algo a1 peer) as [s2|] eqn:Ef; [|destruct H].
    destruct H as [H|[]]. injection H as <- _. split; [exists s1; exact Hin|apply in_ids; exists s2; apply find_algo_in, Ef].
Qed.

Lemma minsp_comm : forall a b, minsp a b = minsp b a.
Proof. intros. unfold minsp. destruct (a <? b) eqn:E1; destruct (b <? a) eqn:E2; lia. Qed.

Lemma candidates_sym : forall own peer, NoDup (ids own) -> NoDup (ids peer) ->
  forall x, In x (candidates own peer) <-> In x (candidates peer own).
Proof.
  intros own peer Ho Hp [a s]. rewrite (candidates_spec own peer Hp), (candidates_spec peer own Ho).
  split; intros (x & y & H1 & H2 & H3); exists y, x; (split; [exact H2|split; [exact H1|rewrite minsp_comm; exact H3]]).
Qed.

(* `better x y` (y is preferred to x) is a strict total order on pairs: by speed, then by smaller id *)
Lemma better_irrefl : forall x, better x x = false.
Proof. intros [a s]. unfold better. cbn [fst snd]. lia. Qed.

Lemma better_asym : forall x y, better x y = true -> better y x = false.
Proof. intros [a s] [b t]. unfold better. cbn [fst snd]. lia. Qed.

Lemma not_better_trans : forall x y z, better x y = false -> better y z = false -> better x z = false.
Proof. intros [a s] [b t] [c u]. unfold better. cbn [fst snd]. lia. Qed.

Lemma not_better_antisym : forall x y, better x y = false -> better y x = false -> x = y.
Proof. intros [a s] [b t]. unfold better. cbn [fst snd]. intros H1 H2. f_equal; lia. Qed.

Lemma best_of_spec : forall l acc,
  In (best_of acc l) (acc :: l) /\ forall y, In y (acc :: l) -> better (best_of acc l) y = false.
Proof.
  induction l as [|x t IH]; intros acc; cbn [best_of].
  - split; [left; reflexivity|]. intros y [<-|[]]. apply better_irrefl.
  - (* the scan goes on with the preferred one of acc and x; nothing among the rest and these two is preferable to its result *)
    set (acc' := if better acc x then x else acc).
    assert (A : In acc' [acc; x] /\ better acc' acc = false /\ better acc' x = false).
    { unfold acc'. destruct (better acc x) eqn:E.
      - split; [right; left; reflexivity|]. split; [apply better_asym, E|apply better_irrefl].
      - split; [left; reflexivity|]. split; [apply better_irrefl|exact E]. }
    destruct A as (A0 & A1 & A2). destruct (IH acc') as [I1 I2]. pose proof (I2 acc' (or_introl eq_refl)) as B. split.
    + destruct I1 as [<-|I1]; [destruct A0 as [<-|[<-|[]]]; [left|right; left]; reflexivity|right; right; exact I1].
    + intros y [<-|[<-|Hy]]; [exact (not_better_trans _ _ _ B A1)|exact (not_better_trans _ _ _ B A2)|apply I2; right; exact Hy].
Qed.

Lemma best_unique : forall (m m' : N * N) (S S' : list (N * N)),
  (forall x, In x S <-> In x S') ->
  In m S -> (forall y, In y S -> better m y = false) ->
  In m' S' -> (forall y, In y S' -> better m' y = false) -> m = m'.
Proof.
  intros m m' S S' Heq Hm Hbm Hm' Hbm'. apply not_better_antisym; [apply Hbm, Heq, Hm'|apply Hbm', Heq, Hm].
Qed.

(* C06-T1 *)
Theorem plain_iff : forall own peer, select_algorithm own peer = Ok None <-> (a_plain own = true /\ a_plain peer = true).
Proof.
  intros own peer. unfold select_algorithm. destruct (a_plain own && a_plain peer) eqn:E.
  - apply andb_true_iff in E. tauto.
  - split.
    + destruct (candidates (a_list own) (a_list peer)); discriminate.
    + intros [H1 H2]. rewrite H1, H2 in E. discriminate.
Qed.

(* C06-T2: clean failure iff not both plain and no common cipher *)
Theorem fail_iff : forall own peer,
  ((exists c, select_algorithm own peer = Err c) <->
   (a_plain own && a_plain peer = false /\ forall a, ~ (In a (ids (a_list own)) /\ In a (ids (a_list peer))))).
Proof.
  intros own peer. unfold select_algorithm. destruct (a_plain own && a_plain peer) eqn:E.
  - split; [intros [c H]; discriminate|intros [H _]; discriminate].
  - destruct (candidates (a_list own) (a_list peer)) as [|[a s] t] eqn:Ec.
    + split; [|intros _; eexists; reflexivity]. intros _. split; [reflexivity|].
      intros a H. apply common_candidate in H. rewrite Ec in H. destruct H as [s []].
    + split; [intros [c H]; discriminate|]. intros [_ H]. destruct (H a).
      apply common_candidate. exists s. rewrite Ec. left. reflexivity.
Qed.

(* C06-T3: otherwise a common cipher whose slower side is fastest *)
Theorem best_minspeed : forall own peer a s, NoDup (ids (a_list peer)) ->
  select_algorithm own peer = Ok (Some (a, s)) ->
  (exists s1 s2, In (a, s1) (a_list own) /\ In (a, s2) (a_list peer) /\ s = minsp s1 s2) /\
  (forall a' s1 s2, In (a', s1) (a_list own) -> In (a', s2) (a_list peer) -> minsp s1 s2 <= s).
Proof.
  intros own peer a s Hp H. unfold select_algorithm in H.
  destruct (a_plain own && a_plain peer); [discriminate|].
  destruct (candidates (a_list own) (a_list peer)) as [|c t] eqn:Ec; [discriminate|]. inversion H as [Hb].
  destruct (best_of_spec t c) as [B1 B2]. rewrite Hb in B1, B2. rewrite <- Ec in B1, B2. split.
  - apply candidates_spec in B1; assumption.
  - intros a' s1 s2 H1 H2.
    assert (Hin : In (a', minsp s1 s2) (candidates (a_list own) (a_list peer))) by (apply candidates_spec; try assumption; exists s1, s2; auto).
    specialize (B2 _ Hin). unfold better in B2. cbn [fst snd] in B2. lia.
Qed.

(* the choice depends on nothing but the plain flags and the SET of common ciphers: whoever computes it, from lists in whatever
   order, arrives at the same cipher *)
Lemma select_ext : forall own peer own' peer',
  a_plain own && a_plain peer = a_plain own' && a_plain peer' ->
  (forall x, In x (candidates (a_list own) (a_list peer)) <-> In x (candidates (a_list own') (a_list peer'))) ->
  select_algorithm own peer = select_algorithm own' peer' \/
  (exists c c', select_algorithm own peer = Err c /\ select_algorithm own' peer' = Err c').
Proof.
  intros own peer own' peer' Ep Hs. unfold select_algorithm. rewrite <- Ep.
  destruct (a_plain own && a_plain peer); [left; reflexivity|].
  destruct (candidates (a_list own) (a_list peer)) as [|c t]; destruct (candidates (a_list own') (a_list peer')) as [|c' t'].
  - left. reflexivity.
  - exfalso. apply (proj2 (Hs c')). left. reflexivity.
  - exfalso. apply (proj1 (Hs c)). left. reflexivity.
  - left. f_equal. f_equal.
    destruct (best_of_spec t c) as [B1 B2]. destruct (best_of_spec t' c') as [B1' B2'].
    apply (best_unique _ _ (c :: t) (c' :: t')); assumption.
Qed.

(* C06-T4: both ends select the same cipher at the same speed, whatever the order of the lists *)
Theorem select_symmetric : forall own peer, NoDup (ids (a_list own)) -> NoDup (ids (a_list peer)) ->
  select_algorithm own peer = select_algorithm peer own \/
  (exists c c', select_algorithm own peer = Err c /\ select_algorithm peer own = Err c').
Proof. intros own peer Ho Hp. apply select_ext; [apply andb_comm|apply candidates_sym; assumption]. Qed.

Theorem select_order_independent : forall own own' peer peer',
  NoDup (ids (a_list peer)) ->
  Permutation (a_list own) (a_list own') -> Permutation (a_list peer) (a_list peer') ->
  a_plain own = a_plain own' -> a_plain peer = a_plain peer' ->
  select_algorithm own peer = select_algorithm own' peer' \/
  (exists c c', select_algorithm own peer = Err c /\ select_algorithm own' peer' = Err c').
Proof.
  intros own own' peer peer' Hp Po Pp Eo Ep.
  assert (Hp' : NoDup (ids (a_list peer'))) by (unfold ids; eapply Permutation_NoDup; [apply Permutation_map; exact Pp|exact Hp]).
  apply select_ext; [congruence|].
  intros [a s]. rewrite (candidates_spec _ _ Hp), (candidates_spec _ _ Hp').
  split; intros (x & y & H1 & H2 & H3); exists x, y; (split; [|split; [|exact H3]]);
    (eapply Permutation_in; [|eassumption]); auto using Permutation_sym.
Qed.
