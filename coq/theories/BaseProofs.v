(* Facts about lists and about the byte-string conversions of Base that several proof files share. *)
From VpnModel Require Import Base.
From Coq Require Import ZifyNat.

Lemma fold_left_inv : forall (S A : Type) (P : S -> Prop) (f : S -> A -> S), (forall s a, P s -> P (f s a)) ->
  forall l s, P s -> P (fold_left f l s).
Proof. intros S A P f H l. induction l as [|a l IH]; intros s Hs; [exact Hs|]. cbn [fold_left]. apply IH, H, Hs. Qed.

Lemma fold_left_keeps : forall (S A B : Type) (g : S -> B) (f : S -> A -> S), (forall s a, g (f s a) = g s) ->
  forall l s, g (fold_left f l s) = g s.
Proof. intros S A B g f H l s. apply (fold_left_inv _ _ (fun s' => g s' = g s)); [intros s' a E; rewrite H; exact E|reflexivity]. Qed.

(* a fold over addresses in which the turn of x establishes Q for good; R, what that takes, lasts until then *)
Lemma fold_left_once : forall (S : Type) (R Q : S -> Prop) (f : S -> N -> S) (x : N),
  (forall s, R s -> Q (f s x)) -> (forall s a, Q s -> Q (f s a)) -> (forall s a, a <> x -> R s -> R (f s a)) ->
  forall l s, In x l -> R s -> Q (fold_left f l s).
Proof.
  intros S R Q f x Hx HQ HR. induction l as [|a l IH]; intros s Hin Hs; [destruct Hin|]. cbn [fold_left].
  destruct (N.eq_dec a x) as [->|Hne]; [exact (fold_left_inv _ _ Q f HQ l _ (Hx s Hs))|].
  destruct Hin as [E|Hin]; [destruct (Hne E)|exact (IH _ Hin (HR s a Hne Hs))].
Qed.

(* the shape of the loop bodies of Node.v: run a function on the node, append its effects *)
Lemma pair_app : forall (A B : Type) (x : A * list B) (fx : list B), (let '(m, fx') := x in (m, fx ++ fx')) = (fst x, fx ++ snd x).
Proof. intros A B [m fx'] fx. reflexivity. Qed.

Lemma list_eqb_refl : forall l, list_eqb l l = true.
Proof. induction l as [|x l IH]; simpl; [reflexivity|]. rewrite N.eqb_refl, IH. reflexivity. Qed.

Lemma list_eqb_eq : forall a b, list_eqb a b = true <-> a = b.
Proof.
  induction a as [|x a IH]; destruct b as [|y b]; simpl; split; intros H; try reflexivity; try discriminate.
  - apply andb_true_iff in H. destruct H as [H1 H2]. apply N.eqb_eq in H1. apply IH in H2. subst. reflexivity.
  - inversion H; subst. rewrite N.eqb_refl. simpl. apply IH. reflexivity.
Qed.

Lemma list_eqb_neq : forall a b, a <> b -> list_eqb a b = false.
Proof. intros a b H. destruct (list_eqb a b) eqn:E; [apply list_eqb_eq in E; contradiction|reflexivity]. Qed.

Lemma firstn_app_exact : forall (A:Type) (l1 l2 : list A) n, length l1 = n -> firstn n (l1 ++ l2) = l1.
Proof. intros. subst. rewrite firstn_app, Nat.sub_diag, firstn_all. simpl. apply app_nil_r. Qed.

Lemma skipn_app_exact : forall (A:Type) (l1 l2 : list A) n, length l1 = n -> skipn n (l1 ++ l2) = l2.
Proof. intros. subst. rewrite skipn_app, Nat.sub_diag, skipn_all. reflexivity. Qed.

(* what the parsers do with a field of n bytes (long enough? take n, go on behind them), on input
   that begins with such a field *)
Lemma cut_app : forall (A:Type) (a r : list A) n, length a = n ->
  (length (a ++ r) <? n)%nat = false /\ firstn n (a ++ r) = a /\ skipn n (a ++ r) = r.
Proof.
  intros A a r n H. split; [apply Nat.ltb_ge; rewrite app_length; lia|].
  split; [apply firstn_app_exact|apply skipn_app_exact]; exact H.
Qed.

Lemma nth_b_app_r : forall (a l : bytes) k i, length a = k -> (k <= i)%nat -> nth_b i (a ++ l) = nth_b (i - k) l.
Proof. intros a l k i H Hi. subst k. apply app_nth2. lia. Qed.

Lemma field_then_byte : forall (a r : bytes) x n, length a = n ->
  let d := a ++ x :: r in
  (length d <? S n)%nat = false /\ firstn n d = a /\ nth_b n d = x /\ skipn (S n) d = r.
Proof.
  intros a r x n H d. unfold d. repeat split.
  - apply Nat.ltb_ge. rewrite app_length. cbn [length]. lia.
  - apply firstn_app_exact, H.
  - rewrite (nth_b_app_r a _ n n H), Nat.sub_diag by lia. reflexivity.
  - change (a ++ x :: r) with (a ++ [x] ++ r). rewrite app_assoc. apply skipn_app_exact. rewrite app_length, H. cbn [length]. lia.
Qed.

Lemma Forall_firstn_skipn : forall (A:Type) (P : A -> Prop) n l,
  Forall P l -> Forall P (firstn n l) /\ Forall P (skipn n l).
Proof. intros A P n l H. apply Forall_app. rewrite firstn_skipn. exact H. Qed.

(* a list of strings of two lengths, split by a test of the length: how both address codecs tell
   IPv4 from IPv6 entries *)
Lemma split_by_length : forall n m (l : list bytes), Forall (fun a => length a = n \/ length a = m) l ->
  Forall (fun a => length a = n) (filter (fun a => Nat.eqb (length a) n) l) /\
  Forall (fun a => length a = m) (filter (fun a => negb (Nat.eqb (length a) n)) l).
Proof.
  intros n m l H. induction H as [|a l Ha Hl [I1 I2]]; [split; constructor|].
  cbn [filter]. destruct (Nat.eqb_spec (length a) n) as [E|E]; cbn [negb]; split; try assumption; constructor; try assumption.
  destruct Ha; [contradiction|assumption].
Qed.

Lemma concat_length_const : forall n (l : list bytes),
  Forall (fun p => length p = n) l -> length (concat l) = (n * length l)%nat.
Proof. intros n l H. induction H as [|p l Hp Hl IH]; [simpl; lia|]. cbn [concat length]. rewrite app_length, IH, Hp. lia. Qed.

Lemma zeros_length : forall n, length (zeros n) = n.
Proof. induction n; simpl; congruence. Qed.

Lemma lenN_byte : forall (A:Type) (l : list A), (length l < 256)%nat -> N.to_nat (lenN l mod 256) = length l.
Proof. intros A l H. unfold lenN. lia. Qed.

Lemma pow_succ_nat : forall b n, b ^ N.of_nat (S n) = b * b ^ N.of_nat n.
Proof. intros. rewrite Nat2N.inj_succ. apply N.pow_succ_r'. Qed.

Lemma be_enc_length : forall n v, length (be_enc n v) = n.
Proof. induction n as [|n IH]; intros v; [reflexivity|]. cbn [be_enc]. rewrite app_length, IH. simpl. lia. Qed.

Lemma be_val_snoc : forall l x, be_val (l ++ [x]) = be_val l * 256 + x.
Proof. intros l. unfold be_val. generalize 0. induction l as [|b t IH]; intros acc x; [reflexivity|apply IH]. Qed.

Lemma be_val_be_enc : forall n v, be_val (be_enc n v) = v mod 256 ^ N.of_nat n.
Proof.
  induction n as [|n IH]; intros v; [cbn; rewrite N.mod_1_r; reflexivity|].
  cbn [be_enc]. rewrite be_val_snoc, IH, pow_succ_nat. set (P := 256 ^ N.of_nat n).
  assert (P <> 0) by (apply N.pow_nonzero; discriminate).
  rewrite N.mod_mul_r by lia. rewrite N.add_comm, (N.mul_comm 256). reflexivity.
Qed.

Lemma be_val_enc_small : forall n v, v < 256 ^ N.of_nat n -> be_val (be_enc n v) = v.
Proof. intros n v H. rewrite be_val_be_enc. apply N.mod_small, H. Qed.

(* a part as both TLV codecs write it (tag, length on two bytes, body), seen as the parsers see it:
   the two length bytes give back the length of the body *)
Lemma tlv_header : forall tag (body r : bytes), lenN body < 65536 ->
  exists l1 l0, (tag :: be_enc 2 (lenN body) ++ body) ++ r = tag :: l1 :: l0 :: body ++ r /\
                N.to_nat (l1 * 256 + l0) = length body.
Proof.
  intros tag body r H. exists (lenN body / 256 mod 256), (lenN body mod 256). split; [reflexivity|].
  rewrite (N.mod_small (lenN body / 256)) by lia. unfold lenN in *. lia.
Qed.
