(* What the PeerCrypto operations do to the three parts of a connection object that the invariants speak of: the handshake
   object, the `unencrypted` flag and the crypto core.  `same_parts`: handshake object and flag untouched, the core moved by its
   own operations only (sealing, rotation messages, data).  A datagram and a housekeeping second are given by outcome, as case
   principles over any predicate of the result (`pc_handle_outcomes`, `pc_every_second_cases`).  The invariants of the node layer
   (trusted list and node id of the handshake object, well-formed cores, no plain connection, ...) each look at one part only and
   read their cases off these.  The sections at the end carry a predicate on the handshake object through the four operations. *)
From VpnModel Require Import Base Core Conn InitSteps PeerCrypto.

Inductive cmove : core -> core -> Prop :=
| cm_here : forall c, cmove c c
| cm_encrypt : forall c b c', cmove (fst (core_encrypt c b)) c' -> cmove c c'
| cm_decrypt : forall c d c', cmove (fst (core_decrypt c d)) c' -> cmove c c'
| cm_tick : forall c c', cmove (core_tick c) c' -> cmove c c'
| cm_rotate : forall c rk rnd c', cmove (apply_rotated c rk rnd) c' -> cmove c c'.

Definition omove (o o' : option core) : Prop :=
  match o, o' with Some c, Some c' => cmove c c' | None, None => True | _, _ => False end.

Lemma omove_refl : forall o, omove o o.
Proof. intros [c|]; [apply cm_here|exact I]. Qed.

Lemma cstep_trans : forall a b c, cmove a b -> cmove b c -> cmove a c.
Proof. intros a b c H. induction H; intros K; [exact K|econstructor; apply IHcmove; exact K..]. Qed.

Lemma omove_trans : forall a b c, omove a b -> omove b c -> omove a c.
Proof. intros [a|] [b|] [c|]; cbn; try tauto. apply cstep_trans. Qed.

Record same_parts (p p' : peer_crypto) : Prop := {
  sp_init : pc_init p' = pc_init p;
  sp_plain : pc_plain p' = pc_plain p;
  sp_core : omove (pc_core p) (pc_core p') }.

Lemma same_parts_refl : forall p, same_parts p p.
Proof. intros p. split; [reflexivity|reflexivity|apply omove_refl]. Qed.

Lemma same_parts_trans : forall a b c, same_parts a b -> same_parts b c -> same_parts a c.
Proof. intros a b c [A1 A2 A3] [B1 B2 B3]. split; [congruence|congruence|eapply omove_trans; eassumption]. Qed.

Lemma same_parts_set : forall p r pl c' cnt fr, pc_plain p = pl -> omove (pc_core p) c' ->
  same_parts p (pc_set p (pc_init p) r pl c' cnt fr).
Proof. intros p r pl c' cnt fr <- H. split; [reflexivity|reflexivity|exact H]. Qed.

Lemma pc_seal_cases : forall p ty b,
  (pc_plain p = true /\ pc_seal p ty b = (p, Ok (WPlain (ty :: b)))) \/
  (pc_plain p = false /\ pc_core p = None /\ pc_seal p ty b = (p, Err 1)) \/
  (pc_plain p = false /\ exists c, pc_core p = Some c /\
     pc_seal p ty b = (pc_set p (pc_init p) (pc_rot p) (pc_plain p) (Some (fst (core_encrypt c (ty :: b)))) (pc_counter p) (pc_fresh p),
                       Ok (WData (snd (core_encrypt c (ty :: b)))))).
Proof.
  intros p ty b. unfold pc_seal. destruct (pc_plain p); [left; split; reflexivity|right].
  destruct (pc_core p) as [c|]; [right; split; [reflexivity|]; exists c; destruct (core_encrypt c (ty :: b)); split; reflexivity|left; repeat split].
Qed.

Lemma pc_seal_parts : forall p ty b, same_parts p (fst (pc_seal p ty b)).
Proof.
  intros p ty b. destruct (pc_seal_cases p ty b) as [(_ & ->)|[(_ & _ & ->)|(Ep & c & Ec & ->)]]; try apply same_parts_refl.
  apply same_parts_set; [reflexivity|]. rewrite Ec. eapply cm_encrypt, cm_here.
Qed.

Lemma pc_handle_rotate_parts : forall p data, same_parts p (fst (pc_handle_rotate p data)).
Proof.
  intros p data. unfold pc_handle_rotate. destruct (pc_plain p) eqn:Ep; [apply same_parts_refl|].
  destruct (pc_rot p) as [rs|]; [|apply same_parts_refl].
  destruct (rot_handle rs data (pc_fresh p)) as [[[rs' rk]|e|s] fr]; cbn [fst];
    [|apply same_parts_set; [exact Ep|apply omove_refl]|apply same_parts_refl].
  destruct (pc_core p) as [c|] eqn:Ec.
  - assert (G : same_parts p (pc_set p (pc_init p) (Some rs') false (option_map (fun c => apply_rotated c rk (pc_rnd p)) (Some c)) (pc_counter p) fr)).
    { apply same_parts_set; [exact Ep|]. rewrite Ec. eapply cm_rotate, cm_here. }
    destruct rk; exact G.
  - destruct rk; (apply same_parts_set; [exact Ep|rewrite Ec; exact I]).
Qed.

Definition quiet (r : res msg_result) : Prop :=
  match r with Ok (MInitialized _) | Ok (MInitializedWithReply _) | Ok MReply => False | _ => True end.

Lemma pc_handle_data : forall ok p w, (forall m, w <> WInit m) ->
  same_parts p (fst (fst (pc_handle ok p w))) /\ snd (pc_handle ok p w) = None /\
  quiet (snd (fst (pc_handle ok p w))).
Proof.
  intros ok p w Hw.
  assert (T : forall p' (r : res msg_result), same_parts p p' -> quiet r ->
              same_parts p (fst (fst (p', r, @None wire))) /\ snd (p', r, @None wire) = None /\
              quiet (snd (fst (p', r, @None wire)))).
  { intros p' r H1 H2. split; [exact H1|split; [reflexivity|exact H2]]. }
  destruct w as [m| | |d|b]; cbn [pc_handle].
  - destruct (Hw m eq_refl).
  - destruct (pc_init p); apply T; [apply same_parts_refl|exact I|apply same_parts_refl|exact I].
  - apply T; [apply same_parts_refl|exact I].
  - destruct (pc_plain p) eqn:Ep.
    + destruct d as [keyid a b c|[|k]]; [destruct (keyid =? MESSAGE_TYPE_ROTATION)| |]; apply T; try apply same_parts_refl; exact I.
    + destruct (pc_core p) as [c|] eqn:Ec; [|apply T; [apply same_parts_refl|exact I]].
      assert (P1 : same_parts p (pc_set p (pc_init p) (pc_rot p) false (Some (fst (core_decrypt c d))) (pc_counter p) (pc_fresh p))).
      { apply same_parts_set; [exact Ep|]. rewrite Ec. eapply cm_decrypt, cm_here. }
      destruct (core_decrypt c d) as [c' [plain|e|s]]; cbn [fst] in P1; [|apply T; [exact P1|exact I]|apply T; [apply same_parts_refl|exact I]].
      destruct plain as [|ty body]; [apply T; [exact P1|exact I]|].
      destruct (ty =? MESSAGE_TYPE_ROTATION); [|apply T; [exact P1|exact I]].
      pose proof (pc_handle_rotate_parts (pc_set p (pc_init p) (pc_rot p) false (Some c') (pc_counter p) (pc_fresh p)) body) as P2.
      destruct (pc_handle_rotate _ body) as [p2 [u|e|s]]; cbn [fst] in P2; apply T; try exact I; eapply same_parts_trans; eassumption.
  - destruct (pc_plain p) eqn:Ep.
    + destruct b as [|ty body]; [|destruct (ty =? MESSAGE_TYPE_ROTATION)]; apply T; try apply same_parts_refl; exact I.
    + destruct (pc_core p) as [c|] eqn:Ec; [|apply T; [apply same_parts_refl|exact I]].
      destruct (core_decrypt c (dgram_of_bytes b)) as [c' x] eqn:E. apply T; [|exact I].
      apply same_parts_set; [exact Ep|]. rewrite Ec. eapply (cm_decrypt c (dgram_of_bytes b)). rewrite E. apply cm_here.
Qed.

(* the handshake object after it has handed its core to the connection: the responder's (CLOSING) is dropped, the initiator's
   stays for its closing minute *)
Definition handed_over (i : init_state) : init_state :=
  upd_init i (i_ecdh i) (i_stage i) (i_close_time i) (i_last i) None (i_selected i) (i_retries i) (i_fresh i).
Definition settle (i : init_state) : option init_state := if i_stage i =? CLOSING then None else Some (handed_over i).

Definition lift_reply (reply : option imsg) : wire := match reply with Some rm => WInit rm | None => WEmpty end.

Lemma pc_handle_init_parts : forall ok p m i i' r reply, pc_init p = Some i -> handle_init ok i m = (i', r, reply) ->
  let p' := fst (fst (pc_handle_init ok p m)) in
  match r with
  | Ok (ISuccess pl ini) =>
      pc_init p' = settle i' /\ pc_plain p' = (match i_core i' with None => true | Some _ => pc_plain p end) /\
      omove (i_core i') (pc_core p') /\
      (snd (fst (pc_handle_init ok p m)) = Ok (MInitialized pl) \/ snd (fst (pc_handle_init ok p m)) = Ok (MInitializedWithReply pl)) /\
      (forall x, snd (pc_handle_init ok p m) = Some x -> (exists rm, reply = Some rm /\ x = WInit rm) \/ (exists d, x = WData d))
  | _ =>
      p' = pc_set p (Some i') (pc_rot p) (pc_plain p) (pc_core p) (pc_counter p) (pc_fresh p) /\
      snd (fst (pc_handle_init ok p m)) = match r with Ok _ => Ok MReply | Err e => Err e | Panic s => Panic s end /\
      snd (pc_handle_init ok p m) = match r with Ok _ => Some (lift_reply reply) | _ => None end
  end.
Proof.
  intros ok p m i i' r reply Hi Hh. unfold pc_handle_init. rewrite Hi, Hh. cbv zeta. fold (settle i').
  destruct r as [[|pl ini]|e|s]; cbn [fst snd]; try (split; [reflexivity|split; reflexivity]).
  destruct ini; cbn [rot_new].
  - cbn [fst snd with_alg pc_set pc_init pc_plain pc_core]. split; [reflexivity|]. split; [reflexivity|]. split; [apply omove_refl|].
    split; [right; reflexivity|]. intros x Hx. left. destruct reply as [rm|]; [|discriminate Hx]. injection Hx as <-. exists rm. split; reflexivity.
  - destruct (i_core i') as [c0|] eqn:Ec.
    + destruct (core_encrypt c0 _) as [c1 dd] eqn:Ee. cbn [fst snd with_alg pc_set pc_init pc_plain pc_core].
      split; [reflexivity|]. split; [reflexivity|]. split; [eapply cm_encrypt; rewrite Ee; apply cm_here|].
      split; [right; reflexivity|]. intros x Hx. right. injection Hx as <-. exists dd. reflexivity.
    + cbn [fst snd pc_set pc_init pc_plain pc_core]. split; [reflexivity|]. split; [reflexivity|]. split; [exact I|].
      split; [left; reflexivity|]. intros x Hx. discriminate Hx.
Qed.

Lemma pc_handle_init_none : forall ok p m, pc_init p = None -> pc_handle_init ok p m = (p, Err 1, None).
Proof. intros ok p m H. unfold pc_handle_init. rewrite H. reflexivity. Qed.

Lemma pc_handle_outcomes : forall ok p w (R : peer_crypto * res msg_result * option wire -> Prop),
  (forall p' r, same_parts p p' -> quiet r -> R (p', r, None)) ->
  (forall m i i' r reply, w = WInit m -> pc_init p = Some i -> handle_init ok i m = (i', r, reply) ->
     match r with Ok (ISuccess _ _) => False | _ => True end ->
     R (pc_set p (Some i') (pc_rot p) (pc_plain p) (pc_core p) (pc_counter p) (pc_fresh p),
        match r with Ok _ => Ok MReply | Err e => Err e | Panic s => Panic s end,
        match r with Ok _ => Some (lift_reply reply) | _ => None end)) ->
  (forall m i i' pl ini reply p' r x, w = WInit m -> pc_init p = Some i -> handle_init ok i m = (i', Ok (ISuccess pl ini), reply) ->
     pc_init p' = settle i' -> pc_plain p' = (match i_core i' with None => true | Some _ => pc_plain p end) ->
     omove (i_core i') (pc_core p') -> r = Ok (MInitialized pl) \/ r = Ok (MInitializedWithReply pl) ->
     (forall y, x = Some y -> (exists rm, reply = Some rm /\ y = WInit rm) \/ (exists d, y = WData d)) ->
     R (p', r, x)) ->
  R (pc_handle ok p w).
Proof.
  intros ok p w R Hsame Hstep Hdone.
  assert (D : (forall m, w <> WInit m) -> R (pc_handle ok p w)).
  { intros Hw. destruct (pc_handle_data ok p w Hw) as (S & E & Q). destruct (pc_handle ok p w) as [[p' r] x]. cbn [fst snd] in *. subst x. exact (Hsame p' r S Q). }
  destruct w as [m| | |d|b]; [|apply D; discriminate..]. clear D. cbn [pc_handle]. destruct (pc_init p) as [i|] eqn:Ei; [|rewrite pc_handle_init_none by exact Ei; apply Hsame; [apply same_parts_refl|exact I]].
  destruct (handle_init ok i m) as [[i' r] reply] eqn:Eh. pose proof (pc_handle_init_parts ok p m i i' r reply Ei Eh) as P. cbv zeta in P.
  destruct (pc_handle_init ok p m) as [[p' r'] x]. cbn [fst snd] in P.
  destruct r as [[|pl ini]|e|s]; try (destruct P as (-> & -> & ->); exact (Hstep m i i' _ reply eq_refl eq_refl Eh I)).
  destruct P as (P1 & P2 & P3 & P4 & P5). exact (Hdone m i i' pl ini reply p' r' x eq_refl eq_refl Eh P1 P2 P3 P4 P5).
Qed.

Lemma pc_initialize_parts : forall p,
  (fst (pc_initialize p) = p /\ exists e, snd (pc_initialize p) = Err e) \/
  (exists i, pc_init p = Some i /\ i_stage i = STAGE_PING /\
     fst (pc_initialize p) = pc_set p (Some (fst (init_send_ping i))) (pc_rot p) (pc_plain p) (pc_core p) (pc_counter p) (pc_fresh p) /\
     snd (pc_initialize p) = Ok (WInit (snd (init_send_ping i)))).
Proof.
  intros p. unfold pc_initialize. destruct (pc_init p) as [i|]; [|left; split; [reflexivity|eexists; reflexivity]].
  destruct (i_stage i =? STAGE_PING) eqn:E; cbn [negb]; [|left; split; [reflexivity|eexists; reflexivity]].
  right. exists i. apply N.eqb_eq in E. destruct (init_send_ping i) as [i' m]. repeat split; assumption.
Qed.

Lemma pc_seal_no_panic : forall p ty b, match snd (pc_seal p ty b) with Panic _ => False | _ => True end.
Proof. intros p ty b. destruct (pc_seal_cases p ty b) as [(_ & ->)|[(_ & _ & ->)|(_ & c & _ & ->)]]; exact I. Qed.

(* A housekeeping second by its outcomes.  The handshake object makes its own step and is dropped once CLOSING, the flag stays, the
   core ticks and may take a rotated key.  Then either the fields are set and nothing goes out but the handshake object's
   repetition of its last message, or a rotation message is sealed by the object so prepared. *)
Section EverySecond.
Variable p : peer_crypto.

Definition init_ticked (io : option init_state) : Prop :=
  io = None \/ exists i, pc_init p = Some i /\ io = Some (fst (init_every_second i)).

Definition core_ticked (o : option core) : Prop :=
  exists rk, o = option_map (fun c => apply_rotated (core_tick c) rk (pc_rnd p)) (pc_core p).

Lemma core_ticked_move : forall o, core_ticked o -> omove (pc_core p) o.
Proof. intros o [rk ->]. destruct (pc_core p); [eapply cm_tick, cm_rotate, cm_here|exact I]. Qed.

Definition sealed_reply (s : peer_crypto * res wire) : peer_crypto * res msg_result * option wire :=
  match s with (p3, Ok w) => (p3, Ok MReply, Some w) | (p3, Err _) => (p3, Err 1, None) | (p3, Panic s) => (p3, Panic s, None) end.

Lemma sealed_reply_object : forall s, fst (fst (sealed_reply s)) = fst s.
Proof. intros [p3 [w|e|x]]; reflexivity. Qed.

Lemma pc_every_second_cases : forall R : peer_crypto * res msg_result * option wire -> Prop,
  (forall io rot c cnt fr r out, init_ticked io -> core_ticked c ->
     match r with Panic _ => False | _ => True end ->
     match out with Some x => exists i m, pc_init p = Some i /\ snd (init_every_second i) = Ok (Some m) /\ x = WInit m | None => True end ->
     R (pc_set p io rot (pc_plain p) c cnt fr, r, out)) ->
  (forall io rot c cnt fr m, init_ticked io -> core_ticked c ->
     R (sealed_reply (pc_seal (pc_set p io rot (pc_plain p) c cnt fr) MESSAGE_TYPE_ROTATION (rot_encode m)))) ->
  R (pc_every_second p).
Proof.
  intros R Hset Hseal. unfold pc_every_second.
  assert (T : core_ticked (option_map core_tick (pc_core p))) by (exists None; destruct (pc_core p); reflexivity).
  assert (T2 : forall rk, core_ticked (option_map (fun c => apply_rotated c rk (pc_rnd p)) (option_map core_tick (pc_core p))))
    by (intros rk; exists rk; destruct (pc_core p); reflexivity).
  revert T T2. generalize (option_map core_tick (pc_core p)). intros c1 T T2.
  set (t := match pc_init p with Some i => let '(i', r) := init_every_second i in (Some i', r) | None => (None, Ok None) end).
  assert (Ht : init_ticked (fst t) /\
               match snd t with Panic _ => False | Ok (Some m) => exists i, pc_init p = Some i /\ snd (init_every_second i) = Ok (Some m) | _ => True end).
  { unfold t, init_ticked. destruct (pc_init p) as [i|]; [|split; [left; reflexivity|exact I]].
    pose proof (init_every_second_result i) as K. destruct (init_every_second i) as [i' r] eqn:E. cbn [fst snd] in *.
    split; [right; exists i; rewrite E; split; reflexivity|]. destruct r as [[m|]|e|s]; try exact I; [|exact K]. exists i. rewrite E. split; reflexivity. }
  destruct t as [io ir]. cbn [fst snd] in Ht. destruct Ht as [Hi Hr].
  assert (Hi' : init_ticked (match io with Some i => if i_stage i =? CLOSING then None else Some i | None => None end)).
  { destruct Hi as [->|(i & E & ->)]; [left; reflexivity|]. destruct (i_stage _ =? CLOSING); [left; reflexivity|right; exists i; split; [exact E|reflexivity]]. }
  destruct ir as [[m|]|e|s]; [| |apply Hset; [exact Hi|exact T|exact I|exact I]|destruct Hr].
  { apply Hset; [exact Hi'|exact T|exact I|]. destruct Hr as (i & E1 & E2). exists i, m. auto. }
  destruct (pc_rot p) as [rs|]; [|apply Hset; [exact Hi'|exact T|exact I|exact I]].
  destruct (pc_counter p + 1 <? ROTATE_INTERVAL); [apply Hset; [exact Hi'|exact T|exact I|exact I]|].
  destruct (rot_cycle rs (pc_fresh p)) as [[[rs' rm] rk] fr].
  destruct rk as [k|], c1 as [c1|], rm as [m|];
    first [apply Hseal; [exact Hi'|apply T2] | apply Hset; [exact Hi'|first [apply T2|exact T]|exact I|exact I]].
Qed.

Lemma pc_every_second_parts : let p' := fst (fst (pc_every_second p)) in
  pc_plain p' = pc_plain p /\ omove (pc_core p) (pc_core p') /\ init_ticked (pc_init p') /\
  (forall x, snd (pc_every_second p) = Some x ->
     (exists i m, pc_init p = Some i /\ snd (init_every_second i) = Ok (Some m) /\ x = WInit m) \/
     (exists p2 ty b, pc_plain p2 = pc_plain p /\ snd (pc_seal p2 ty b) = Ok x)).
Proof.
  cbv zeta. apply pc_every_second_cases.
  - intros io rot c cnt fr r out Hi Hc _ Ho. cbn [fst snd pc_set pc_plain pc_core pc_init].
    split; [reflexivity|]. split; [exact (core_ticked_move _ Hc)|]. split; [exact Hi|]. intros x ->. left. exact Ho.
  - intros io rot c cnt fr m Hi Hc. set (p2 := pc_set p io rot (pc_plain p) c cnt fr).
    destruct (pc_seal_parts p2 MESSAGE_TYPE_ROTATION (rot_encode m)) as [S1 S2 S3].
    destruct (pc_seal p2 MESSAGE_TYPE_ROTATION (rot_encode m)) as [p3 [w|e|s]] eqn:E; cbn [sealed_reply fst snd] in *;
      (split; [exact S2|]; split; [exact (omove_trans _ _ _ (core_ticked_move _ Hc) S3)|]; split; [rewrite S1; exact Hi|]); intros x Hx; try discriminate Hx.
    injection Hx as <-. right. exists p2, MESSAGE_TYPE_ROTATION, (rot_encode m). rewrite E. split; reflexivity.
Qed.

Lemma pc_every_second_no_panic : match snd (fst (pc_every_second p)) with Panic _ => False | _ => True end.
Proof.
  apply pc_every_second_cases.
  - intros io rot c cnt fr r out _ _ Hr _. exact Hr.
  - intros io rot c cnt fr m _ _. pose proof (pc_seal_no_panic (pc_set p io rot (pc_plain p) c cnt fr) MESSAGE_TYPE_ROTATION (rot_encode m)) as K.
    destruct (pc_seal _ MESSAGE_TYPE_ROTATION (rot_encode m)) as [p3 [w|e|s]]; [exact I|exact I|destruct K].
Qed.
End EverySecond.

Section OnInit.
Variable Q : init_state -> Prop.
Definition on_init (p : peer_crypto) : Prop := forall i, pc_init p = Some i -> Q i.

Hypothesis Q_handle : forall ok i m, Q i -> Q (fst (fst (handle_init ok i m))).
Hypothesis Q_handover : forall i, Q i -> Q (handed_over i).
Hypothesis Q_ping : forall i, Q i -> Q (fst (init_send_ping i)).
Hypothesis Q_tick : forall i, Q i -> Q (fst (init_every_second i)).

Lemma on_init_same : forall p p', pc_init p' = pc_init p -> on_init p -> on_init p'.
Proof. intros p p' E H i Hi. rewrite E in Hi. exact (H i Hi). Qed.

Lemma on_init_handle : forall ok p w, on_init p -> on_init (fst (fst (pc_handle ok p w))).
Proof.
  intros ok p w H. apply pc_handle_outcomes.
  - intros p' r [E _ _] _. exact (on_init_same _ _ E H).
  - intros m i i' r reply _ Ei Eh _ i0 H0. injection H0 as <-. pose proof (Q_handle ok i m (H i Ei)) as Q'. rewrite Eh in Q'. exact Q'.
  - intros m i i' pl ini reply p' r x _ Ei Eh P _ _ _ _ i0 H0. cbn [fst] in H0. rewrite P in H0. unfold settle in H0.
    destruct (_ =? CLOSING); [discriminate H0|]. injection H0 as <-.
    pose proof (Q_handle ok i m (H i Ei)) as Q'. rewrite Eh in Q'. apply Q_handover, Q'.
Qed.

Lemma on_init_initialize : forall p, on_init p -> on_init (fst (pc_initialize p)).
Proof.
  intros p H. destruct (pc_initialize_parts p) as [[-> _]|(i & Ei & _ & -> & _)]; [exact H|].
  intros i0 H0. injection H0 as <-. apply Q_ping, H, Ei.
Qed.

Lemma on_init_tick : forall p, on_init p -> on_init (fst (fst (pc_every_second p))).
Proof.
  intros p H i Hi. destruct (pc_every_second_parts p) as (_ & _ & [E|(i0 & E0 & E)] & _); rewrite E in Hi; [discriminate Hi|].
  injection Hi as <-. apply Q_tick, H, E0.
Qed.

Lemma on_init_seal : forall p ty b, on_init p -> on_init (fst (pc_seal p ty b)).
Proof. intros p ty b. apply on_init_same, pc_seal_parts. Qed.
End OnInit.

Section Ident.
Variable Q : init_state -> Prop.
Hypothesis Q_ident : forall s s', same_ident s s' -> Q s -> Q s'.

Lemma ident_handle : forall ok p w, on_init Q p -> on_init Q (fst (fst (pc_handle ok p w))).
Proof.
  apply on_init_handle; intros; (eapply Q_ident; [|eassumption]); [apply handle_init_ident|repeat split].
Qed.
Lemma ident_initialize : forall p, on_init Q p -> on_init Q (fst (pc_initialize p)).
Proof. apply on_init_initialize. intros i. apply Q_ident, init_send_ping_ident. Qed.
Lemma ident_tick : forall p, on_init Q p -> on_init Q (fst (fst (pc_every_second p))).
Proof. apply on_init_tick. intros i. apply Q_ident, init_every_second_ident. Qed.
End Ident.
