(* C16: the encoders of rotation and handshake messages are inverted by their decoders; handshake parts with an unknown tag are skipped. *)
From VpnModel Require Import Base BaseProofs Conn InitMsg.
From Coq Require Import ZifyBool.

Definition rot_wf (m : rot_msg) : Prop :=
  rm_id m < 2 ^ 64 /\ (length (rm_propose m) < 256)%nat /\
  match rm_confirm m with Some c => (0 < length c < 256)%nat | None => True end.

(* C16-T4: rotation messages *)
Theorem rot_roundtrip : forall m tail, rot_wf m -> rot_decode (rot_encode m ++ tail) = Some m.
Proof.
  intros [id prop conf] tail (Hid & Hp & Hc). cbn [rm_id rm_propose rm_confirm] in *.
  unfold rot_encode, rot_decode. cbn [rm_id rm_propose rm_confirm].
  set (C := match conf with Some c => [lenN c mod 256] ++ c | None => [0] end).
  rewrite <- !app_assoc. cbn [app].
  destruct (field_then_byte (be_enc 8 id) (prop ++ C ++ tail) (lenN prop mod 256) 8 (be_enc_length 8 id)) as (-> & -> & -> & ->).
  rewrite (lenN_byte _ prop Hp), (be_val_enc_small 8 id Hid).
  destruct (cut_app _ prop (C ++ tail) _ eq_refl) as (-> & -> & ->).
  unfold C. destruct conf as [c|]; cbn [app]; [|reflexivity].
  rewrite (lenN_byte _ c) by lia. assert ((lenN c mod 256 =? 0) = false) as -> by (unfold lenN; lia).
  destruct (cut_app _ c tail _ eq_refl) as (-> & -> & _). reflexivity.
Qed.

Theorem rot_decode_total : forall d, match rot_decode d with Some _ => True | None => True end.
Proof. intros. destruct (rot_decode d); exact I. Qed.

Definition algos_ok (a : list (N * N) * bool) : Prop :=
  Forall (fun e => 1 <= fst e <= 3 /\ snd e < 4294967296) (fst a).

Lemma be_enc4_val : forall v, v < 4294967296 -> exists b3 b2 b1 b0, be_enc 4 v = [b3; b2; b1; b0] /\ be_val [b3; b2; b1; b0] = v.
Proof. intros v H. do 4 eexists. split; [reflexivity|]. exact (be_val_enc_small 4 v H). Qed.

Lemma read_algos_list : forall l r acc pl, Forall (fun e => 1 <= fst e <= 3 /\ snd e < 4294967296) l ->
  read_algos (length l) (flat_map (fun e => fst e :: be_enc 4 (snd e)) l ++ r) acc pl = Some (rev acc ++ l, pl, r).
Proof.
  induction l as [|[a s] t IH]; intros r acc pl H.
  - cbn. rewrite app_nil_r. reflexivity.
  - inversion H as [|? ? [Ha Hs] Ht]; subst. cbn [fst snd] in *.
    destruct (be_enc4_val s Hs) as (b3 & b2 & b1 & b0 & He & Hv).
    cbn [length flat_map fst snd app]. rewrite He. cbn [app read_algos]. rewrite Hv.
    assert ((a =? 0) = false) as -> by lia. assert ((1 <=? a) && (a <=? 3) = true) as -> by lia.
    rewrite (IH r ((a, s) :: acc) pl Ht). cbn [rev]. rewrite <- app_assoc. reflexivity.
Qed.

Lemma enc_algos_count : forall a, (length (enc_algos a) / 5)%nat = ((if snd a then 1 else 0) + length (fst a))%nat.
Proof.
  intros [l pl]. cbn [fst snd].
  assert (H : length (enc_algos (l, pl)) = (((if pl then 1 else 0) + length l) * 5)%nat).
  { unfold enc_algos. cbn [fst snd]. rewrite app_length.
    assert (length (flat_map (fun e : N * N => fst e :: be_enc 4 (snd e)) l) = (length l * 5)%nat) as ->.
    { induction l as [|e t IH]; [reflexivity|]. cbn [flat_map]. rewrite app_length, IH. cbn [length]. rewrite be_enc_length. lia. }
    destruct pl; cbn [length]; rewrite ?be_enc_length; lia. }
  rewrite H. apply Nat.div_mul. lia.
Qed.

Lemma read_algos_enc : forall a r, algos_ok a ->
  read_algos (length (enc_algos a) / 5) (enc_algos a ++ r) [] false = Some (fst a, snd a, r).
Proof.
  intros [l pl] r H. rewrite enc_algos_count. unfold enc_algos. cbn [fst snd] in *.
  destruct pl; cbn [Nat.add app].
  - change (be_enc 4 2139095040) with [127; 128; 0; 0]. cbn [app read_algos N.eqb].
    rewrite (read_algos_list l r [] true H). reflexivity.
  - rewrite (read_algos_list l r [] false H). reflexivity.
Qed.

Definition parsed_ok (p : parsed) : Prop :=
  match p with
  | PPing h e a => length h = 20%nat /\ lenN e < 65536 /\ algos_ok a /\ lenN (enc_algos a) < 65536
  | PPong h e a pl => length h = 20%nat /\ lenN e < 65536 /\ algos_ok a /\ lenN (enc_algos a) < 65536 /\ lenN pl < 65536
  | PPeng h pl => length h = 20%nat /\ lenN pl < 65536
  end.

Definition set_stage f st := {| f_stage := Some st; f_hash := f_hash f; f_ecdh := f_ecdh f; f_payload := f_payload f; f_algos := f_algos f |}.
Definition set_hash f h := {| f_stage := f_stage f; f_hash := Some h; f_ecdh := f_ecdh f; f_payload := f_payload f; f_algos := f_algos f |}.
Definition set_ecdh f e := {| f_stage := f_stage f; f_hash := f_hash f; f_ecdh := Some e; f_payload := f_payload f; f_algos := f_algos f |}.
Definition set_payload f p := {| f_stage := f_stage f; f_hash := f_hash f; f_ecdh := f_ecdh f; f_payload := Some p; f_algos := f_algos f |}.
Definition set_algos f a := {| f_stage := f_stage f; f_hash := f_hash f; f_ecdh := f_ecdh f; f_payload := f_payload f; f_algos := Some a |}.

Lemma pp_stage : forall fu st r f, parse_parts (S fu) (enc_tlv 1 [st] ++ r) f = parse_parts fu r (set_stage f st).
Proof. intros. reflexivity. Qed.

Lemma pp_hash : forall fu h r f, length h = 20%nat -> parse_parts (S fu) (enc_tlv 2 h ++ r) f = parse_parts fu r (set_hash f h).
Proof.
  intros fu h r f Hl. unfold enc_tlv.
  destruct (tlv_header 2 h r ltac:(unfold lenN; rewrite Hl; reflexivity)) as (l1 & l0 & -> & E2). cbn [parse_parts N.eqb Pos.eqb].
  rewrite E2, Hl. cbn [Nat.eqb negb]. destruct (cut_app _ h r 20 Hl) as (-> & -> & ->). reflexivity.
Qed.

Lemma pp_ecdh : forall fu e r f, lenN e < 65536 -> parse_parts (S fu) (enc_tlv 3 e ++ r) f = parse_parts fu r (set_ecdh f e).
Proof.
  intros fu e r f Hl. unfold enc_tlv. destruct (tlv_header 3 e r Hl) as (l1 & l0 & -> & E2). cbn [parse_parts N.eqb Pos.eqb]. rewrite E2.
  destruct (cut_app _ e r _ eq_refl) as (-> & -> & ->). reflexivity.
Qed.

Lemma pp_payload : forall fu p r f, lenN p < 65536 -> parse_parts (S fu) (enc_tlv 5 p ++ r) f = parse_parts fu r (set_payload f p).
Proof.
  intros fu p r f Hl. unfold enc_tlv. destruct (tlv_header 5 p r Hl) as (l1 & l0 & -> & E2). cbn [parse_parts N.eqb Pos.eqb]. rewrite E2.
  destruct (cut_app _ p r _ eq_refl) as (-> & -> & ->). reflexivity.
Qed.

Lemma pp_algos : forall fu a r f, algos_ok a -> lenN (enc_algos a) < 65536 ->
  parse_parts (S fu) (enc_tlv 4 (enc_algos a) ++ r) f = parse_parts fu r (set_algos f a).
Proof.
  intros fu a r f Ha Hl. unfold enc_tlv. destruct (tlv_header 4 (enc_algos a) r Hl) as (l1 & l0 & -> & E2). cbn [parse_parts N.eqb Pos.eqb]. rewrite E2.
  rewrite (read_algos_enc a r Ha). destruct a. reflexivity.
Qed.

(* unknown parts are skipped, wherever they stand (C16-T2 for the handshake codec) *)
Lemma pp_unknown : forall fu tag body r f, (5 < tag) -> lenN body < 65536 ->
  parse_parts (S fu) (enc_tlv tag body ++ r) f = parse_parts fu r f.
Proof.
  intros fu tag body r f Ht Hl. unfold enc_tlv. destruct (tlv_header tag body r Hl) as (l1 & l0 & -> & E2). cbn [parse_parts]. rewrite E2.
  rewrite !(proj2 (N.eqb_neq tag _)) by lia.
  destruct (cut_app _ body r _ eq_refl) as (-> & _ & ->). reflexivity.
Qed.

Lemma pp_end : forall fu r f, parse_parts (S fu) (0 :: r) f = Ok (f, r).
Proof. reflexivity. Qed.

Definition fields_of (p : parsed) : ifields :=
  match p with
  | PPing h e a => set_algos (set_ecdh (set_hash (set_stage f0 1) h) e) a
  | PPong h e a pl => set_payload (set_algos (set_ecdh (set_hash (set_stage f0 2) h) e) a) pl
  | PPeng h pl => set_payload (set_hash (set_stage f0 3) h) pl
  end.

Lemma parse_written : forall p r fu, parsed_ok p -> (6 <= fu)%nat ->
  parse_parts fu (write_body p ++ r) f0 = Ok (fields_of p, r).
Proof.
  intros p r fu Hok Hfu. do 6 (destruct fu as [|fu]; [lia|]).
  destruct p as [h e a|h e a pl|h pl]; cbn [parsed_ok] in Hok; unfold write_body; repeat rewrite <- app_assoc.
  - destruct Hok as (H1 & H2 & H3 & H4). rewrite pp_stage, pp_hash, pp_ecdh, pp_algos by assumption. reflexivity.
  - destruct Hok as (H1 & H2 & H3 & H4 & H5). rewrite pp_stage, pp_hash, pp_ecdh, pp_algos, pp_payload by assumption. reflexivity.
  - destruct Hok as (H1 & H2). rewrite pp_stage, pp_hash, pp_payload by assumption. reflexivity.
Qed.

Lemma firstn_app_l : forall (A:Type) (a b : list A) n, (n <= length a)%nat -> firstn n (a ++ b) = firstn n a.
Proof. intros A a b n H. rewrite firstn_app. replace (n - length a)%nat with 0%nat by lia. apply app_nil_r. Qed.

Lemma skipn_app_l : forall (A:Type) (a b : list A) n, (n <= length a)%nat -> skipn n (a ++ b) = skipn n a ++ b.
Proof. intros A a b n H. rewrite skipn_app. replace (n - length a)%nat with 0%nat by lia. reflexivity. Qed.

(* C16-T3: a written message followed by its signature (and anything behind it) reads back as the
   same message, given that the 8-byte prefix selects a trusted key and the signature over
   prefix ++ parts verifies under it *)
Theorem initmsg_roundtrip : forall lookup verify pfx p sig tail key,
  length pfx = 8%nat -> parsed_ok p ->
  lookup (firstn 4 pfx) (firstn 4 (skipn 4 pfx)) = Some key ->
  verify key (pfx ++ write_body p) sig = true ->
  read_from lookup verify (pfx ++ write_body p ++ [lenN sig] ++ sig ++ tail) = Ok (p, key).
Proof.
  intros lookup verify pfx p sig tail key Hpfx Hok Hlk Hver.
  unfold read_from.
  assert (Nat.ltb (length (pfx ++ write_body p ++ [lenN sig] ++ sig ++ tail)) 8 = false) as ->
    by (apply Nat.ltb_ge; rewrite app_length; lia).
  rewrite (firstn_app_l _ pfx), (skipn_app_l _ pfx _ 4), firstn_app_l, Hlk by (rewrite ?skipn_length; lia).
  rewrite (skipn_app_exact _ pfx _ 8 Hpfx).
  rewrite parse_written; [|exact Hok|].
  2:{ assert (4 <= length (write_body p))%nat by (destruct p; unfold write_body; change (enc_tlv 1 [?x]) with [1; 0; 1; x]; cbn [app length]; lia).
      rewrite app_length. cbn [app length]. lia. }
  cbn [app]. replace (N.to_nat (lenN sig)) with (length sig) by (unfold lenN; lia).
  destruct (cut_app _ sig tail _ eq_refl) as (-> & -> & _).
  (* the signed bytes are everything in front of the signature's length byte *)
  assert (Hpos : firstn (length (pfx ++ write_body p ++ lenN sig :: sig ++ tail) - length (lenN sig :: sig ++ tail))
                        (pfx ++ write_body p ++ lenN sig :: sig ++ tail) = pfx ++ write_body p).
  { rewrite app_assoc, app_length, Nat.add_sub. apply firstn_app_exact. reflexivity. }
  rewrite Hpos, Hver. cbn [negb].
  destruct p as [h e a|h e a pl|h pl]; reflexivity.
Qed.
