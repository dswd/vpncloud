(* C05, recovery: a handshake object that answered a ping and waits for the peng gives up after MAX_FAILED_RETRIES seconds whatever
   else arrives meanwhile.  No message of another stage - in particular not the pongs of a peer that is itself waiting for OUR peng
   (both ends dialled, gave up, and got the other's last ping late) - changes the object or its give-up counter; only the awaited
   peng does.  So two responder states cannot keep each other alive: each one's (121 - retries)-th tick is the fatal "Initialization
   timeout", after which the node drops the entry and can dial again. *)
From VpnModel Require Import Base Conn InitSteps.

Definition ev_step (ok : bytes -> bool) (s : init_state) (e : option imsg) : init_state * bool :=
  match e with
  | None => let '(s', r) := init_every_second s in (s', match r with Err 30 => true | _ => false end)
  | Some m => (fst (fst (handle_init ok s m)), false)
  end.

Fixpoint run_evs (ok : bytes -> bool) (s : init_state) (evs : list (option imsg)) : init_state * bool :=
  match evs with
  | [] => (s, false)
  | e :: t => let '(s1, g1) := ev_step ok s e in let '(s2, g2) := run_evs ok s1 t in (s2, g1 || g2)
  end.

Definition ticks (evs : list (option imsg)) : N := N.of_nat (length (filter (fun e => match e with None => true | Some _ => false end) evs)).

Lemma other_stage_changes_nothing : forall ok s m,
  i_stage s = STAGE_PENG -> im_stage m <> STAGE_PENG -> fst (fst (handle_init ok s m)) = s.
Proof.
  intros ok s m Hs Hm. rewrite handle_init_eq. destruct (hi_gate s m) as [e|rep|s0] eqn:G; [reflexivity|reflexivity|exfalso].
  destruct (hi_gate_accept s m s0 G) as (_ & _ & _ & [[E _]|(E & _)]); [apply Hm|rewrite Hs in E; discriminate E]. congruence.
Qed.

Lemma tick_counts : forall s, i_stage s = STAGE_PENG ->
  (i_retries s < MAX_FAILED_RETRIES -> i_stage (fst (init_every_second s)) = STAGE_PENG /\
      i_retries (fst (init_every_second s)) = i_retries s + 1 /\ (forall x, snd (init_every_second s) <> Err x)) /\
  (MAX_FAILED_RETRIES <= i_retries s -> snd (init_every_second s) = Err 30).
Proof.
  intros s Hs. unfold init_every_second. rewrite Hs.
  assert ((STAGE_PENG =? WAITING_TO_CLOSE) = false) as -> by reflexivity.
  assert ((STAGE_PENG =? CLOSING) = false) as -> by reflexivity.
  split; intros H.
  - assert ((i_retries s <? MAX_FAILED_RETRIES) = true) as -> by (apply N.ltb_lt; exact H).
    cbn [fst snd upd_init i_stage i_retries]. split; [reflexivity|]. split; [reflexivity|]. intros x Hx; discriminate Hx.
  - assert ((i_retries s <? MAX_FAILED_RETRIES) = false) as -> by (apply N.ltb_ge; exact H). reflexivity.
Qed.

Lemma run_evs_cons : forall ok s e t,
  snd (run_evs ok s (e :: t)) = snd (ev_step ok s e) || snd (run_evs ok (fst (ev_step ok s e)) t).
Proof. intros ok s e t. cbn [run_evs]. destruct (ev_step ok s e) as [s1 g1]. cbn [fst snd]. destruct (run_evs ok s1 t) as [s2 g2]. reflexivity. Qed.

Theorem waiting_responder_gives_up : forall ok evs s,
  i_stage s = STAGE_PENG -> i_retries s <= MAX_FAILED_RETRIES ->
  Forall (fun e => match e with Some m => im_stage m <> STAGE_PENG | None => True end) evs ->
  MAX_FAILED_RETRIES < i_retries s + ticks evs ->
  snd (run_evs ok s evs) = true.
Proof.
  intros ok evs. induction evs as [|e t IH]; intros s Hs Hr Hall Hn; [unfold ticks in Hn; cbn in Hn; lia|].
  inversion Hall as [|? ? He Ht]; subst. rewrite run_evs_cons. destruct e as [m|]; cbn [ev_step].
  - (* a message: nothing changes *)
    cbn [fst snd orb]. rewrite (other_stage_changes_nothing ok s m Hs He). exact (IH s Hs Hr Ht Hn).
  - (* a second: one more retry, or the timeout *)
    destruct (tick_counts s Hs) as [A B]. destruct (init_every_second s) as [s1 r]. cbn [fst snd] in *.
    destruct (N.lt_ge_cases (i_retries s) MAX_FAILED_RETRIES) as [Hlt|Hge]; [|rewrite (B Hge); reflexivity].
    destruct (A Hlt) as (A1 & A2 & _). rewrite (IH s1 A1); [apply Bool.orb_true_r|lia|exact Ht|].
    rewrite A2. unfold ticks in *. cbn [filter length] in Hn. lia.
Qed.

(* non-vacuity: a responder that has just sent its pong, fed 121 seconds and 242 pongs of the other end in between *)
Definition ex_pong : imsg := {| im_signer := 1; im_stage := STAGE_PONG; im_salt := 7; im_node := 9; im_ecdh := Some [1]; im_algos := Some {| a_list := []; a_plain := true |}; im_payload := Some (PPlain []) |}.
Definition ex_responder : init_state :=
  upd_init (init_new 1 5 [] 1 [1] {| a_list := []; a_plain := true |} 100 []) None STAGE_PENG 60 (Some ex_pong) None None 0 100.
Lemma ex_gives_up : i_stage ex_responder = STAGE_PENG /\ i_retries ex_responder <= MAX_FAILED_RETRIES /\
  snd (run_evs (fun _ => true) ex_responder (flat_map (fun _ => [Some ex_pong; Some ex_pong; None]) (seq 0 121))) = true.
Proof. split; [reflexivity|]. split; [vm_compute; intro H; discriminate H|vm_compute; reflexivity]. Qed.
