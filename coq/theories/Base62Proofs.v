(* C17/C18: base 62 (util.rs) as change of base between little-endian numerals: to_base62 and from_base62 are inverse up to
   leading zero bytes. *)
From VpnModel Require Import Base BaseProofs Base62.
From Coq Require Import ZifyBool.

Definition digits_lt (base : N) (l : list N) : Prop := Forall (fun d => d < base) l.
Definition canon (base : N) (l : list N) : Prop := digits_lt base l /\ (l = [] \/ last l 0 <> 0).

Lemma pow_pos : forall b n, 0 < b -> 0 < b ^ n.
Proof. intros b n H. assert (b ^ n <> 0) by (apply N.pow_nonzero; lia). lia. Qed.

Lemma lval_bound : forall base l, digits_lt base l -> lval base l < base ^ N.of_nat (length l).
Proof.
  intros base l. induction l as [|d t IH]; intros H; [cbn [lval length N.of_nat N.pow]; lia|].
  inversion H as [|? ? Hd Ht]; subst. specialize (IH Ht).
  cbn [lval length]. rewrite pow_succ_nat.
  set (P := base ^ N.of_nat (length t)) in *. clearbody P. nia.
Qed.

Lemma lval_app : forall base a b, lval base (a ++ b) = lval base a + base ^ N.of_nat (length a) * lval base b.
Proof.
  intros base a b. induction a as [|d t IH]; [cbn [app lval length N.of_nat N.pow]; lia|].
  cbn [app lval length]. rewrite IH, pow_succ_nat. lia.
Qed.

Lemma mul_add_spec : forall base mult buf carry, 0 < base ->
  length (fst (mul_add base mult buf carry)) = length buf /\
  digits_lt base (fst (mul_add base mult buf carry)) /\
  lval base (fst (mul_add base mult buf carry)) + base ^ N.of_nat (length buf) * snd (mul_add base mult buf carry)
    = carry + mult * lval base buf.
Proof.
  intros base mult buf. induction buf as [|x t IH]; intros carry Hb.
  - cbn [mul_add fst snd lval length N.of_nat N.pow]. split; [reflexivity|split; [constructor|lia]].
  - cbn [mul_add]. specialize (IH ((carry + x * mult) / base) Hb).
    destruct (mul_add base mult t ((carry + x * mult) / base)) as [t' c'] eqn:E. cbn [fst snd] in *.
    destruct IH as (I1 & I2 & I3). repeat split.
    + cbn [length]. rewrite I1. reflexivity.
    + constructor; [apply N.mod_lt; lia|exact I2].
    + cbn [lval length]. rewrite pow_succ_nat.
      pose proof (N.div_mod (carry + x * mult) base ltac:(lia)) as Hdm. nia.
Qed.

Definition gstep (base mult : N) (buf : list N) (carry : N) : list N :=
  let '(b, c) := mul_add base mult buf carry in if 0 <? c then b ++ [c] else b.

Lemma canon_lower : forall base l, 1 < base -> canon base l -> l <> [] -> base ^ N.of_nat (length l - 1) <= lval base l.
Proof.
  intros base l Hb [Hd Hc] Hne. destruct Hc as [Hc|Hc]; [contradiction|].
  destruct (exists_last Hne) as (m & z & ->). rewrite last_last in Hc.
  rewrite lval_app, app_length. cbn [length lval]. replace (length m + 1 - 1)%nat with (length m) by lia.
  assert (0 < base ^ N.of_nat (length m)) by (apply pow_pos; lia). nia.
Qed.

Lemma lower_canon : forall base l, digits_lt base l ->
  (l <> [] -> base ^ N.of_nat (length l - 1) <= lval base l) -> canon base l.
Proof.
  intros base l Hd Hl. split; [exact Hd|].
  induction l as [|z m _] using rev_ind; [left; reflexivity|right].
  rewrite last_last. intros ->. specialize (Hl ltac:(destruct m; discriminate)).
  apply Forall_app in Hd. pose proof (lval_bound base m (proj1 Hd)).
  rewrite lval_app, app_length in Hl. cbn [lval length] in Hl. rewrite Nat.add_sub in Hl. lia.
Qed.

Lemma canon_length : forall base l n, 1 < base -> canon base l -> lval base l < base ^ N.of_nat n -> (length l <= n)%nat.
Proof.
  intros base l n Hb Hc Hv. destruct (list_eq_dec N.eq_dec l []) as [->|Hne]; [cbn [length]; lia|].
  pose proof (canon_lower base l Hb Hc Hne) as Hl.
  destruct (Nat.le_gt_cases (length l) n) as [H|H]; [exact H|exfalso].
  assert (base ^ N.of_nat n <= base ^ N.of_nat (length l - 1)) by (apply N.pow_le_mono_r; lia). lia.
Qed.

Lemma gstep_spec : forall base mult buf carry,
  1 < base -> 1 <= mult <= base -> carry < mult -> canon base buf ->
  canon base (gstep base mult buf carry) /\
  lval base (gstep base mult buf carry) = carry + mult * lval base buf /\
  snd (mul_add base mult buf carry) < base.
Proof.
  intros base mult buf carry Hb Hm Hc Hcan. pose proof (proj1 Hcan) as Hd.
  pose proof (mul_add_spec base mult buf carry ltac:(lia)) as (S1 & S2 & S3).
  pose proof (lval_bound base buf Hd) as Bv.
  unfold gstep. destruct (mul_add base mult buf carry) as [b c] eqn:E. cbn [fst snd] in *.
  assert (HP : 0 < base ^ N.of_nat (length buf)) by (apply pow_pos; lia).
  assert (Hcb : c < base) by nia.
  split; [|split; [|exact Hcb]]; destruct (0 <? c) eqn:Ec.
  - split; [apply Forall_app; split; [exact S2|constructor; [exact Hcb|constructor]]|].
    right. rewrite last_last. lia.
  - (* no carry: the value has not shrunk, so the top digit is still there *)
    apply lower_canon; [exact S2|]. intros Hne. rewrite S1.
    assert (Hbuf : buf <> []) by (intros ->; destruct b; [congruence|discriminate]).
    pose proof (canon_lower base buf Hb Hcan Hbuf). nia.
  - rewrite lval_app. cbn [lval]. rewrite S1. lia.
  - lia.
Qed.

Lemma canon_zero : forall base l, 1 < base -> canon base l -> lval base l = 0 -> l = [].
Proof.
  intros base l Hb Hc Hv. destruct l as [|x l]; [reflexivity|exfalso].
  pose proof (canon_lower base _ Hb Hc ltac:(discriminate)).
  pose proof (pow_pos base (N.of_nat (length (x :: l) - 1)) ltac:(lia)). lia.
Qed.

Lemma canon_tail : forall base x l, canon base (x :: l) -> canon base l.
Proof.
  intros base x l [Hd Hc]. split; [inversion Hd; assumption|]. destruct l; [left; reflexivity|right].
  destruct Hc as [Hc|Hc]; [discriminate|exact Hc].
Qed.

Lemma canon_unique : forall base a b, 1 < base -> canon base a -> canon base b -> lval base a = lval base b -> a = b.
Proof.
  intros base a. induction a as [|x a IH]; intros b Hb Ha Hcb Hv.
  - symmetry. apply (canon_zero base); [assumption..|symmetry; exact Hv].
  - destruct b as [|y b]; [apply (canon_zero base); assumption|].
    pose proof (proj1 Ha) as Hda. pose proof (proj1 Hcb) as Hdb. inversion Hda; inversion Hdb; subst.
    cbn [lval] in Hv. assert (x = y /\ lval base a = lval base b) as [-> Hv']
      by (destruct (N.lt_trichotomy (lval base a) (lval base b)) as [|[|]]; nia).
    f_equal. apply IH; eauto using canon_tail.
Qed.

Lemma b62_step_ok : forall cap buf m, canon 62 buf -> m < 16 -> (length buf < cap)%nat ->
  b62_step cap buf m = Ok (gstep 62 16 buf m).
Proof.
  intros cap buf m Hc Hm Hcap. pose proof (gstep_spec 62 16 buf m ltac:(lia) ltac:(lia) Hm Hc) as (_ & _ & G3).
  pose proof (mul_add_spec 62 16 buf m ltac:(lia)) as (S1 & _ & _).
  unfold b62_step, gstep. destruct (mul_add 62 16 buf m) as [b d]. cbn [fst snd] in *.
  assert ((d <? 62) = true) as -> by lia. cbn [negb].
  destruct (0 <? d); [|reflexivity]. assert (Nat.ltb (length b) cap = true) as -> by (apply Nat.ltb_lt; lia). reflexivity.
Qed.

Lemma b62_nibbles_spec : forall ns cap buf n,
  canon 62 buf -> Forall (fun m => m < 16) ns -> lval 62 buf < 16 ^ N.of_nat n -> (n + length ns <= cap)%nat ->
  exists b, b62_nibbles cap buf ns = Ok b /\ canon 62 b /\ lval 62 b = val_acc 16 (lval 62 buf) ns.
Proof.
  induction ns as [|m t IH]; intros cap buf n Hc Hn Hv Hcap.
  - exists buf. split; [reflexivity|split; [exact Hc|reflexivity]].
  - inversion Hn as [|? ? Hm Ht]; subst. cbn [length] in Hcap.
    assert (Hlen : (length buf <= n)%nat).
    { apply (canon_length 62); [lia|exact Hc|]. pose proof (N.pow_le_mono_l 16 62 (N.of_nat n) ltac:(lia)). lia. }
    cbn [b62_nibbles]. rewrite (b62_step_ok cap buf m Hc Hm ltac:(lia)).
    pose proof (gstep_spec 62 16 buf m ltac:(lia) ltac:(lia) Hm Hc) as (G1 & G2 & _).
    destruct (IH cap (gstep 62 16 buf m) (S n) G1 Ht) as (b & Hb1 & Hb2 & Hb3).
    + rewrite G2, pow_succ_nat. lia.
    + lia.
    + exists b. split; [exact Hb1|split; [exact Hb2|]].
      rewrite Hb3, G2. cbn [val_acc]. f_equal. lia.
Qed.

Lemma nibbles_props : forall data, all_bytes data ->
  Forall (fun m => m < 16) (nibbles data) /\ length (nibbles data) = (2 * length data)%nat /\
  forall acc, val_acc 16 acc (nibbles data) = be_val_acc acc data.
Proof.
  induction data as [|b t IH]; intros H; [repeat split; constructor|].
  inversion H as [|? ? Hb Ht]; subst. destruct (IH Ht) as (I1 & I2 & I3).
  unfold nibbles in *. cbn [flat_map app]. repeat split.
  - constructor; [lia|]. constructor; [lia|exact I1].
  - cbn [length]. rewrite I2. lia.
  - intros acc. cbn [val_acc be_val_acc]. rewrite I3. f_equal. lia.
Qed.

(* C17-T1 / C18: to_base62 never panics and yields the canonical base-62 numeral of the big-endian value *)
Theorem to_base62_spec : forall data, all_bytes data ->
  exists ds, to_base62_digits data = Ok ds /\ canon 62 (rev ds) /\ lval 62 (rev ds) = be_val data.
Proof.
  intros data H. destruct (nibbles_props data H) as (N1 & N2 & N3).
  destruct (b62_nibbles_spec (nibbles data) (2 * length data) [] 0) as (b & Hb1 & Hb2 & Hb3).
  - split; [constructor|left; reflexivity].
  - exact N1.
  - simpl. lia.
  - lia.
  - exists (rev b). unfold to_base62_digits. rewrite Hb1. rewrite rev_involutive. split; [reflexivity|split; [exact Hb2|]].
    rewrite Hb3. cbn [lval]. rewrite N3. reflexivity.
Qed.

Lemma from_step_gstep : forall buf v, canon 256 buf -> v < 62 -> from_step buf v = gstep 256 62 buf v.
Proof.
  intros buf v Hc Hv. pose proof (gstep_spec 256 62 buf v ltac:(lia) ltac:(lia) Hv Hc) as (_ & _ & G3).
  unfold from_step, gstep. destruct (mul_add 256 62 buf v) as [b c]. cbn [snd] in G3.
  destruct (0 <? c); [|reflexivity]. rewrite N.mod_small by exact G3. reflexivity.
Qed.

Lemma from_fold_spec : forall ds buf, canon 256 buf -> Forall (fun d => d < 62) ds ->
  canon 256 (fold_left from_step ds buf) /\
  lval 256 (fold_left from_step ds buf) = val_acc 62 (lval 256 buf) ds.
Proof.
  induction ds as [|d t IH]; intros buf Hc Hd; [split; [exact Hc|reflexivity]|].
  inversion Hd as [|? ? Hd1 Ht]; subst. cbn [fold_left val_acc].
  rewrite (from_step_gstep buf d Hc Hd1).
  pose proof (gstep_spec 256 62 buf d ltac:(lia) ltac:(lia) Hd1 Hc) as (G1 & G2 & _).
  destruct (IH _ G1 Ht) as [I1 I2]. split; [exact I1|]. rewrite I2, G2. f_equal. lia.
Qed.

Lemma val_acc_rev : forall base l acc, val_acc base acc l = lval base (rev l) + base ^ N.of_nat (length l) * acc.
Proof.
  intros base l. induction l as [|d t IH]; intros acc; [cbn [val_acc rev lval length N.of_nat N.pow]; lia|].
  cbn [val_acc rev length]. rewrite IH, lval_app, rev_length, pow_succ_nat. cbn [lval].
  set (P := base ^ N.of_nat (length t)). clearbody P. lia.
Qed.

Lemma be_val_lval : forall l, be_val l = lval 256 (rev l).
Proof.
  induction l as [|x l IH] using rev_ind; [reflexivity|].
  rewrite be_val_snoc, rev_app_distr, IH. cbn [rev app lval]. lia.
Qed.

Theorem from_base62_spec : forall ds, Forall (fun d => d < 62) ds ->
  canon 256 (rev (from_base62_digits ds)) /\ be_val (from_base62_digits ds) = lval 62 (rev ds).
Proof.
  intros ds H. unfold from_base62_digits. rewrite rev_involutive.
  destruct (from_fold_spec ds [] (conj (Forall_nil _) (or_introl eq_refl)) H) as [F1 F2].
  split; [exact F1|]. rewrite be_val_lval, rev_involutive, F2, val_acc_rev. cbn [lval]. lia.
Qed.

Lemma strip0_spec : forall l, all_bytes l -> canon 256 (rev (strip0 l)) /\ be_val (strip0 l) = be_val l.
Proof.
  induction l as [|b t IH]; intros H; [split; [split; [constructor|left; reflexivity]|reflexivity]|].
  inversion H as [|? ? Hb Ht]; subst. cbn [strip0]. destruct b as [|p]; [exact (IH Ht)|].
  split; [|reflexivity]. cbn [rev]. split.
  - apply Forall_app. split; [apply Forall_rev; exact Ht|constructor; [exact Hb|constructor]].
  - right. rewrite last_last. discriminate.
Qed.

Lemma strip0_spec_len : forall l, (length (strip0 l) <= length l)%nat.
Proof. induction l as [|b t IH]; [simpl; lia|]. cbn [strip0]. destruct b; cbn [length]; lia. Qed.

Lemma strip0_pad : forall l, zeros (length l - length (strip0 l)) ++ strip0 l = l.
Proof.
  induction l as [|b t IH]; [reflexivity|]. cbn [strip0]. destruct b as [|p].
  - pose proof (strip0_spec_len t) as Hl. cbn [length].
    replace (S (length t) - length (strip0 t))%nat with (S (length t - length (strip0 t))) by lia.
    cbn [zeros app]. rewrite IH. reflexivity.
  - rewrite Nat.sub_diag. reflexivity.
Qed.

Lemma b62_val_char : forall c v,
  (48 <= c <= 57 /\ v = c - 48) \/ (65 <= c <= 90 /\ v = c - 55) \/ (97 <= c <= 122 /\ v = c - 61) -> b62_val c = Some v.
Proof.
  intros c v H. unfold b62_val.
  destruct ((48 <=? c) && (c <=? 57)) eqn:E1; [f_equal; lia|].
  destruct ((65 <=? c) && (c <=? 90)) eqn:E2; [f_equal; lia|].
  destruct ((97 <=? c) && (c <=? 122)) eqn:E3; [f_equal; lia|lia].
Qed.

Lemma char_roundtrip : forall d, d < 62 -> b62_val (b62_char d) = Some d.
Proof.
  intros d H. apply b62_val_char. unfold b62_char.
  destruct (d <? 10) eqn:E1; [lia|]. destruct (d <? 36) eqn:E2; lia.
Qed.

Lemma chars_vals_map : forall ds, Forall (fun d => d < 62) ds -> chars_vals (map b62_char ds) = Some ds.
Proof.
  induction ds as [|d t IH]; intros H; [reflexivity|]. inversion H as [|? ? Hd Ht]; subst.
  cbn [map chars_vals]. rewrite (char_roundtrip d Hd), (IH Ht). reflexivity.
Qed.

(* C17-T1: decoding the text of a byte string yields the string without its leading zero bytes *)
Theorem base62_roundtrip : forall data, all_bytes data ->
  exists s, to_base62 data = Ok s /\ from_base62 s = Ok (strip0 data).
Proof.
  intros data H. destruct (to_base62_spec data H) as (ds & T1 & T2 & T3).
  exists (map b62_char ds). unfold to_base62. rewrite T1. split; [reflexivity|].
  assert (Hds : Forall (fun d => d < 62) ds).
  { destruct T2 as [T2 _]. apply Forall_rev in T2. rewrite rev_involutive in T2. exact T2. }
  unfold from_base62. rewrite (chars_vals_map ds Hds). f_equal.
  destruct (from_base62_spec ds Hds) as [F1 F2]. destruct (strip0_spec data H) as (S1 & S2).
  assert (Heq : rev (from_base62_digits ds) = rev (strip0 data)).
  { apply (canon_unique 256); try assumption; [lia|]. rewrite <- !be_val_lval. rewrite F2, T3, S2. reflexivity. }
  rewrite <- (rev_involutive (from_base62_digits ds)), Heq, rev_involutive. reflexivity.
Qed.

Corollary base62_roundtrip_exact : forall data, all_bytes data -> nth_b 0%nat data <> 0 ->
  exists s, to_base62 data = Ok s /\ from_base62 s = Ok data.
Proof.
  intros data H Hnz. destruct (base62_roundtrip data H) as (s & H1 & H2). exists s. split; [exact H1|].
  rewrite H2. destruct data as [|b t]; [reflexivity|]. unfold nth_b in Hnz. cbn in Hnz. destruct b; [contradiction|reflexivity].
Qed.

Theorem to_base62_no_panic : forall data, all_bytes data -> is_ok (to_base62 data) = true.
Proof. intros data H. destruct (base62_roundtrip data H) as (s & H1 & _). rewrite H1. reflexivity. Qed.

Theorem from_base62_total : forall s, is_panic (from_base62 s) = false.
Proof. intros s. unfold from_base62. destruct (chars_vals s); reflexivity. Qed.
