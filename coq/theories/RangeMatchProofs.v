(* C11: Range::matches (the /p comparison of two addresses) agrees with the length of the common prefix of their bit strings. *)
From VpnModel Require Import Base BaseProofs RangeMatch.
From Coq Require Import ZifyBool.

Fixpoint lcp (u v : list bool) : nat :=
  match u, v with
  | a :: u', b :: v' => if Bool.eqb a b then S (lcp u' v') else O
  | _, _ => O
  end.

Lemma lcp_le : forall u v, (lcp u v <= length u)%nat.
Proof. induction u as [|a u IH]; intros [|b v]; simpl; try lia. destruct (Bool.eqb a b); [specialize (IH v)|]; lia. Qed.

Lemma lcp_refl : forall u, lcp u u = length u.
Proof. induction u as [|a u IH]; simpl; [reflexivity|]. rewrite Bool.eqb_reflx, IH. reflexivity. Qed.

Lemma lcp_app_same : forall u a b, lcp (u ++ a) (u ++ b) = (length u + lcp a b)%nat.
Proof. induction u as [|x u IH]; intros a b; simpl; [reflexivity|]. rewrite Bool.eqb_reflx, IH. reflexivity. Qed.

Lemma lcp_app_short : forall u v a b, length u = length v -> (lcp u v < length u)%nat ->
  lcp (u ++ a) (v ++ b) = lcp u v.
Proof.
  induction u as [|x u IH]; intros [|y v] a b Hl H; simpl in *; try lia.
  destruct (Bool.eqb x y); [|reflexivity]. f_equal. apply IH; lia.
Qed.

Lemma lcp_firstn : forall u v p, length u = length v ->
  (p <= lcp u v)%nat <-> ((p <= length u)%nat /\ firstn p u = firstn p v).
Proof.
  induction u as [|a u IH]; intros v p Hl; destruct v as [|b v]; simpl in Hl; try lia.
  - rewrite !firstn_nil. simpl. split; [intros H; split; [exact H|reflexivity]|intros [H _]; exact H].
  - destruct p as [|p].
    + simpl. split; intros; [split; [lia|reflexivity]|lia].
    + cbn [lcp firstn length]. destruct (Bool.eqb a b) eqn:E.
      * apply Bool.eqb_prop in E. subst. rewrite <- !Nat.succ_le_mono, (IH v p) by lia.
        split; intros [H1 H2]; (split; [exact H1|]); [rewrite H2; reflexivity|injection H2 as H2; exact H2].
      * split; [lia|]. intros [_ H]. inversion H. subst. rewrite Bool.eqb_reflx in E. discriminate.
Qed.

Definition bitsn (n : nat) (x : N) : list bool := map (fun i => N.testbit x (N.of_nat i)) (rev (seq 0 n)).

(* two n-bit numbers agree above the highest set bit of their xor and differ there *)
Lemma lcp_bitsn : forall n x y, N.lxor x y <> 0 -> N.log2 (N.lxor x y) < N.of_nat n ->
  N.of_nat (lcp (bitsn n x) (bitsn n y)) = N.of_nat n - 1 - N.log2 (N.lxor x y).
Proof.
  intros n x y Hm. unfold bitsn. induction n as [|n IH]; intro Hn; [lia|].
  rewrite seq_S, rev_app_distr. cbn [rev app map lcp Nat.add].
  pose proof (N.lxor_spec x y (N.of_nat n)) as X.
  destruct (N.eq_dec (N.log2 (N.lxor x y)) (N.of_nat n)) as [E|E].
  - rewrite <- E, N.bit_log2 in X by exact Hm. rewrite E in X.
    destruct (N.testbit x (N.of_nat n)), (N.testbit y (N.of_nat n)); try discriminate X; cbn [Bool.eqb]; lia.
  - rewrite N.bits_above_log2 in X by lia.
    destruct (N.testbit x (N.of_nat n)), (N.testbit y (N.of_nat n)); try discriminate X; cbn [Bool.eqb]; lia.
Qed.

Lemma bits_length : forall l, length (bits l) = (8 * length l)%nat.
Proof. induction l as [|x l IH]; simpl; [reflexivity|]. rewrite IH. lia. Qed.

Lemma match_len_lcp : forall a b, all_bytes a -> all_bytes b -> length a = length b ->
  match_len a b = N.of_nat (lcp (bits a) (bits b)).
Proof.
  induction a as [|x a IH]; intros [|y b] Ha Hb Hl; simpl in Hl; try lia; [reflexivity|].
  inversion Ha as [|? ? Hx Ha']; inversion Hb as [|? ? Hy Hb']; subst.
  cbn [match_len]. change (bits (x :: a)) with (bits8 x ++ bits a). change (bits (y :: b)) with (bits8 y ++ bits b).
  destruct (N.lxor x y =? 0) eqn:E.
  - apply N.eqb_eq, N.lxor_eq in E. subst y. rewrite lcp_app_same, (IH b Ha' Hb') by lia. cbn [bits8 length]. lia.
  - apply N.eqb_neq in E. unfold lz8. rewrite (proj2 (N.eqb_neq _ _) E).
    pose proof (N.log2_lxor x y). pose proof (N.log2_le_mono x 255). pose proof (N.log2_le_mono y 255).
    change (N.log2 255) with 7 in *.
    pose proof (lcp_bitsn 8 x y E ltac:(lia)) as P. change (bitsn 8 x) with (bits8 x) in P. change (bitsn 8 y) with (bits8 y) in P.
    rewrite lcp_app_short by (cbn [bits8 length]; lia). lia.
Qed.

(* C11-T1: matches = "same length, prefix within the address, first prefix_len bits agree" *)
Theorem matches_spec : forall base p addr, all_bytes base -> all_bytes addr ->
  range_matches base p addr = true <->
  (length base = length addr /\ (N.to_nat p <= 8 * length addr)%nat /\
   firstn (N.to_nat p) (bits addr) = firstn (N.to_nat p) (bits base)).
Proof.
  intros base p addr Hb Ha. unfold range_matches.
  destruct (Nat.eqb (length base) (length addr)) eqn:El; cbn [negb].
  - apply Nat.eqb_eq in El.
    rewrite (match_len_lcp addr base Ha Hb ltac:(lia)).
    pose proof (lcp_firstn (bits addr) (bits base) (N.to_nat p) ltac:(rewrite !bits_length; lia)) as L.
    rewrite bits_length in L. split.
    + intros H. assert (Hp : (N.to_nat p <= lcp (bits addr) (bits base))%nat) by lia.
      apply L in Hp. tauto.
    + intros (_ & H1 & H2). assert (Hp : (N.to_nat p <= lcp (bits addr) (bits base))%nat) by (apply L; tauto). lia.
  - apply Nat.eqb_neq in El. split; [discriminate|]. intros (H & _). lia.
Qed.

Corollary overlong_never_matches : forall base p addr, all_bytes base -> all_bytes addr ->
  (8 * length addr < N.to_nat p)%nat -> range_matches base p addr = false.
Proof.
  intros base p addr Hb Ha Hp. destruct (range_matches base p addr) eqn:E; [|reflexivity].
  apply matches_spec in E; try assumption. lia.
Qed.

Lemma range_roundtrip : forall b p tail, (length b <= 16)%nat ->
  range_read (range_write (b, p) ++ tail) = Ok ((b, p), tail).
Proof.
  intros b p tail Hl. unfold range_write, range_read, addr_read, lenN. cbn [fst snd app].
  assert ((16 <? N.of_nat (length b)) = false) as -> by lia.
  rewrite Nat2N.id, <- app_assoc.
  destruct (cut_app _ b ([p] ++ tail) _ eq_refl) as (-> & -> & ->). reflexivity.
Qed.
