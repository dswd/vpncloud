(* C20: configuration sources combine as documented. *)
From VpnModel Require Import Base ConfigMerge.

(* command line if given, else file, else default *)
Definition pick {A} (a f : option A) (d : A) : A :=
  match a with Some v => v | None => match f with Some v => v | None => d end end.
Definition picko {A} (a f : option A) : option A := match a with Some v => Some v | None => f end.

Fixpoint last_plain (l : list hook_arg) : option N :=
  match l with
  | [] => None
  | x :: t => match last_plain t with
              | Some s => Some s
              | None => match x with HPlain s => Some s | HEvent _ _ => None end
              end
  end.
Fixpoint last_event (k : N) (l : list hook_arg) : option N :=
  match l with
  | [] => None
  | x :: t => match last_event k t with
              | Some s => Some s
              | None => match x with HEvent e s => if k =? e then Some s else None | HPlain _ => None end
              end
  end.
Fixpoint last_kv (k : N) (l : list (N * N)) : option N :=
  match l with
  | [] => None
  | (k', v) :: t => match last_kv k t with Some s => Some s | None => if k =? k' then Some v else None end
  end.

Lemma args_hook_spec : forall l cur, args_hook cur l = picko (last_plain l) cur.
Proof.
  unfold args_hook. induction l as [|x t IH]; intro cur; [reflexivity|]. cbn [fold_left last_plain]. rewrite IH.
  destruct (last_plain t); [reflexivity|]. destruct x; reflexivity.
Qed.

Lemma hget_hinsert : forall m k v k', hget (hinsert m k v) k' = if k' =? k then Some v else hget m k'.
Proof.
  induction m as [|[k0 v0] t IH]; intros k v k'; cbn [hinsert hget].
  - destruct (k' =? k); reflexivity.
  - destruct (k =? k0) eqn:E; cbn [hget].
    + apply N.eqb_eq in E. subst k0. destruct (k' =? k); reflexivity.
    + rewrite IH. destruct (k' =? k0) eqn:E2; [|reflexivity].
      apply N.eqb_eq in E2. subst k0. assert ((k' =? k) = false) as -> by (apply N.eqb_neq; apply N.eqb_neq in E; congruence). reflexivity.
Qed.

Lemma args_hooks_spec : forall l m k, hget (args_hooks m l) k = picko (last_event k l) (hget m k).
Proof.
  unfold args_hooks. induction l as [|x t IH]; intros m k; [reflexivity|]. cbn [fold_left last_event]. rewrite IH.
  destruct (last_event k t); [reflexivity|]. destruct x as [s|e s]; [reflexivity|]. rewrite hget_hinsert. destruct (k =? e); reflexivity.
Qed.

Lemma file_hooks_spec : forall l m k, hget (fold_left (fun m kv => hinsert m (fst kv) (snd kv)) l m) k = picko (last_kv k l) (hget m k).
Proof.
  induction l as [|[k0 v0] t IH]; intros m k; [reflexivity|]. cbn [fold_left last_kv fst snd]. rewrite IH.
  destruct (last_kv k t); [reflexivity|]. rewrite hget_hinsert. destruct (k =? k0); reflexivity.
Qed.

Definition spec_scalars (f : config_file) (a : args) (c : config) : Prop :=
  device_type c = pick (a_type a) (sub (cf_dev f) cfd_type) 0 /\
  device_name c = pick (a_device a) (sub (cf_dev f) cfd_name) DEFAULT_DEVICE_NAME /\
  device_path c = picko (a_device_path a) (sub (cf_dev f) cfd_path) /\
  ip c = picko (a_ip a) (cf_ip f) /\
  ifup c = picko (a_ifup a) (cf_ifup f) /\
  ifdown c = picko (a_ifdown a) (cf_ifdown f) /\
  listen c = pick (a_listen a) (cf_listen f) DEFAULT_LISTEN /\
  peer_timeout c = pick (a_peer_timeout a) (cf_peer_timeout f) 300 /\
  keepalive c = picko (a_keepalive a) (cf_keepalive f) /\
  beacon_store c = picko (a_beacon_store a) (sub (cf_beacon_ f) cfb_store) /\
  beacon_load c = picko (a_beacon_load a) (sub (cf_beacon_ f) cfb_load) /\
  beacon_interval c = pick (a_beacon_interval a) (sub (cf_beacon_ f) cfb_interval) 3600 /\
  beacon_password c = picko (a_beacon_password a) (sub (cf_beacon_ f) cfb_password) /\
  mode c = pick (a_mode a) (cf_mode f) 0 /\
  switch_timeout c = pick (a_switch_timeout a) (cf_switch_timeout f) 300 /\
  pid_file c = picko (a_pid_file a) (cf_pid_file f) /\
  stats_file c = picko (a_stats_file a) (cf_stats_file f) /\
  statsd_server c = picko (a_statsd_server a) (sub (cf_statsd_ f) cfs_server) /\
  statsd_prefix c = picko (a_statsd_prefix a) (sub (cf_statsd_ f) cfs_prefix) /\
  user c = picko (a_user a) (cf_user f) /\
  group c = picko (a_group a) (cf_group f) /\
  cc_password (crypto c) = picko (a_password a) (cc_password (cf_crypto f)) /\
  cc_private (crypto c) = picko (a_private_key a) (cc_private (cf_crypto f)) /\
  cc_public (crypto c) = picko (a_public_key a) (cc_public (cf_crypto f)) /\
  hook c = picko (last_plain (a_hook a)) (cf_hook f).

Lemma ovo_none : forall (A : Type) (x : option A), ovo x None = x.
Proof. intros A x. destruct x; reflexivity. Qed.

Lemma picko_spec : forall (A : Type) (a f : option A), ovo a (ovo f None) = picko a f.
Proof. intros A a f. rewrite ovo_none. reflexivity. Qed.

(* each field of `effective f a` computes to ov a (ov f default), which is pick by definition,
   or to ovo a (ovo f None) *)
Theorem precedence_scalars : forall f a, spec_scalars f a (effective f a).
Proof.
  intros f a. repeat apply conj; try reflexivity; try apply picko_spec.
  exact (eq_trans (args_hook_spec _ _) (picko_spec _ _ _)).
Qed.

(* switches: the command line can only switch on --fix-rp-filter and --daemon and switch off
   auto-claim and port forwarding; otherwise the file value, else the default *)
Theorem precedence_switches : forall f a,
  let c := effective f a in
  fix_rp_filter c = (a_fix_rp_filter a || pick None (sub (cf_dev f) cfd_fix) false) /\
  auto_claim c = (negb (a_no_auto_claim a) && pick None (cf_auto_claim f) true) /\
  port_forwarding c = (negb (a_no_port_forwarding a) && pick None (cf_port_forwarding f) true) /\
  daemonize c = a_daemon a.
Proof.
  intros f a c. subst c. unfold effective, merge_args. cbn [fix_rp_filter auto_claim port_forwarding daemonize].
  repeat apply conj; [|destruct (a_no_auto_claim a)|destruct (a_no_port_forwarding a)|destruct (a_daemon a)]; reflexivity.
Qed.

Theorem lists_accumulate : forall f a,
  let c := effective f a in
  peers c = ov (cf_peers f) [] ++ a_peers a /\
  claims c = ov (cf_claims f) [] ++ a_claims a /\
  advertise c = ov (cf_advertise f) [] ++ a_advertise a /\
  cc_trusted (crypto c) = cc_trusted (cf_crypto f) ++ a_trusted a /\
  (forall k, hget (hooks c) k = picko (last_event k (a_hook a)) (last_kv k (cf_hooks f))).
Proof.
  intros f a. unfold effective. do 4 (split; [reflexivity|]).
  intro k. unfold merge_args. cbn [hooks]. rewrite args_hooks_spec. unfold merge_file, default_config. cbn [hooks].
  rewrite file_hooks_spec. cbn [hget]. destruct (last_kv k (cf_hooks f)); reflexivity.
Qed.

(* the cipher list is not accumulated: a non-empty list replaces (command line over file) *)
Theorem algorithms_replace : forall f a,
  cc_algos (crypto (effective f a)) =
  match a_algos a with [] => (match cc_algos (cf_crypto f) with [] => [] | l => l end) | l => l end.
Proof. intros f a. reflexivity. Qed.

Lemma hinsert_new : forall m k v, ~ In k (map fst m) -> hinsert m k v = m ++ [(k, v)].
Proof.
  induction m as [|[k0 v0] t IH]; intros k v Hn; [reflexivity|]. cbn [hinsert app].
  cbn [map fst In] in Hn. assert ((k =? k0) = false) as -> by (apply N.eqb_neq; intro; apply Hn; left; congruence).
  f_equal. apply IH. intro H. apply Hn. right. exact H.
Qed.

Lemma fold_hinsert_nodup : forall l m, NoDup (map fst (m ++ l)) ->
  fold_left (fun m kv => hinsert m (fst kv) (snd kv)) l m = m ++ l.
Proof.
  induction l as [|[k v] t IH]; intros m Hn; [rewrite app_nil_r; reflexivity|]. cbn [fold_left fst snd].
  assert (Hk : ~ In k (map fst m)).
  { rewrite map_app in Hn. cbn [map fst] in Hn. apply NoDup_remove_2 in Hn. intro H. apply Hn. apply in_or_app. left. exact H. }
  rewrite hinsert_new by exact Hk. rewrite IH; [rewrite <- app_assoc; reflexivity|]. rewrite <- app_assoc. exact Hn.
Qed.

Lemma algos_id : forall l : list N, match l with [] => [] | n :: t => n :: t end = l.
Proof. intros l. destruct l; reflexivity. Qed.

(* every setting the file format can express comes back (daemonize is command-line only);
   the hook map has unique keys, being a map *)
Theorem file_roundtrip_id : forall c, daemonize c = false -> NoDup (map fst (hooks c)) -> file_roundtrip c = c.
Proof.
  intros c Hd Hn. destruct c as [dt dn dp fr i adv iu idn cr li pe pt ka bs bl bi bp mo st cl ac pf da pid sf ss sp us gr hk hks].
  cbn [daemonize hooks] in Hd, Hn. subst da. destruct cr as [cpw cpr cpu ctr cal].
  unfold file_roundtrip, merge_file, into_config_file, default_config, default_crypto.
  cbn -[ovo fold_left hinsert]. rewrite !ovo_none. rewrite algos_id.
  rewrite (fold_hinsert_nodup hks []) by exact Hn. reflexivity.
Qed.


Theorem file_roundtrip_daemon : forall c, daemonize (file_roundtrip c) = false.
Proof. reflexivity. Qed.
