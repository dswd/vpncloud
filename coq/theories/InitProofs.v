(* C05 at the level of one handshake object: it completes at most once, a completed object is inert, who starts the rotation,
   and the invariant under which the ECDH key is never taken twice. *)
From VpnModel Require Import Base Core Conn InitSteps PeerCrypto.
From Coq Require Import ZifyBool.

Definition is_success (r : res init_result) : bool := match r with Ok (ISuccess _ _) => true | _ => false end.
Definition closed_stage (s : init_state) : Prop := i_stage s = WAITING_TO_CLOSE \/ i_stage s = CLOSING.

Lemma closed_not_accepted : forall s m s0, closed_stage s -> hi_gate s m <> GAccept s0.
Proof.
  intros s m s0 Hc G. destruct (hi_gate_accept s m s0 G) as (_ & Hf & _ & [[E _]|(E & _)]).
  - apply hi_fields_stage in Hf. rewrite E in Hf. destruct Hc as [Hc|Hc]; rewrite Hc in Hf; destruct Hf as [Hf|[Hf|Hf]]; discriminate Hf.
  - destruct Hc as [Hc|Hc]; rewrite Hc in E; discriminate E.
Qed.

Lemma closed_answers : forall ok s m, closed_stage s ->
  fst (fst (handle_init ok s m)) = s /\ match snd (fst (handle_init ok s m)) with Ok IContinue | Err _ => True | _ => False end.
Proof.
  intros ok s m Hc. rewrite handle_init_eq. pose proof (closed_not_accepted s m) as Hn.
  destruct (hi_gate s m) as [e|rep|s0]; [split; [reflexivity|exact I]..|destruct (Hn s0 Hc eq_refl)].
Qed.

Lemma closed_no_success : forall ok s m, closed_stage s ->
  is_success (snd (fst (handle_init ok s m))) = false /\ fst (fst (handle_init ok s m)) = s.
Proof.
  intros ok s m Hc. destruct (closed_answers ok s m Hc) as [E R]. split; [|exact E].
  destruct (snd (fst (handle_init ok s m))) as [[|pl ini]|e|p]; [reflexivity|destruct R|reflexivity|destruct R].
Qed.

Lemma success_closes : forall ok s m p ini, snd (fst (handle_init ok s m)) = Ok (ISuccess p ini) ->
  closed_stage (fst (fst (handle_init ok s m))).
Proof.
  intros ok s m p ini H. destruct (handle_init ok s m) as [[s' r] rep] eqn:E. cbn [fst snd] in *. subst r.
  destruct (handle_init_success _ _ _ _ _ _ _ E) as (_ & Hs & _). destruct ini; [left|right]; exact Hs.
Qed.

(* C05-T3: an object completes at most once over any sequence of messages *)
Fixpoint run_init (ok : bytes -> bool) (s : init_state) (ms : list imsg) : init_state * N :=
  match ms with
  | [] => (s, 0)
  | m :: t => let '(s', r, _) := handle_init ok s m in
              let '(s'', n) := run_init ok s' t in (s'', (if is_success r then 1 else 0) + n)
  end.

Lemma run_closed : forall ok ms s, closed_stage s -> snd (run_init ok s ms) = 0.
Proof.
  intros ok ms. induction ms as [|m t IH]; intros s Hc; [reflexivity|].
  cbn [run_init]. destruct (closed_no_success ok s m Hc) as [H1 H2].
  destruct (handle_init ok s m) as [[s' r] w]. cbn [fst snd] in *. subst s'.
  specialize (IH s Hc). destruct (run_init ok s t) as [s'' n]. cbn [snd] in *. rewrite H1, IH. reflexivity.
Qed.

Theorem at_most_once : forall ok ms s, snd (run_init ok s ms) <= 1.
Proof.
  intros ok ms. induction ms as [|m t IH]; intros s; [cbn; lia|].
  cbn [run_init]. destruct (handle_init ok s m) as [[s' r] w] eqn:E.
  destruct (is_success r) eqn:Es.
  - assert (Hc : closed_stage s').
    { destruct r as [[|p ini]| |]; try discriminate.
      pose proof (success_closes ok s m p ini) as H. rewrite E in H. cbn [fst snd] in H. apply H. reflexivity. }
    pose proof (run_closed ok t s' Hc) as H0. destruct (run_init ok s' t) as [s'' n]. cbn [snd] in *. lia.
  - specialize (IH s'). destruct (run_init ok s' t) as [s'' n]. cbn [snd] in *. lia.
Qed.

(* C05-T2: the end that completes as handshake responder creates its rotation state as rotation
   initiator (and emits message 1), the handshake initiator does not *)
Theorem roles : forall ok p m p' payload ini w,
  pc_handle_init ok p m = (p', Ok (MInitializedWithReply payload), w) \/ pc_handle_init ok p m = (p', Ok (MInitialized payload), w) ->
  forall i, pc_init p = Some i -> snd (fst (handle_init ok i m)) = Ok (ISuccess payload ini) ->
  match pc_core p' with
  | None => pc_plain p' = true
  | Some _ => exists rs, pc_rot p' = Some rs /\ (if ini then r_mid rs = 0 /\ r_proposed rs = None else r_mid rs = 1 /\ r_proposed rs <> None)
  end.
Proof.
  intros ok p m p' payload ini w H i Hi Hs. unfold pc_handle_init in H. rewrite Hi in H.
  destruct (handle_init ok i m) as [[i' r] reply]. cbn [fst snd] in Hs. subst r.
  destruct ini.
  - destruct (i_core i') as [c|] eqn:Ec; destruct H as [H|H]; inversion H; subst; cbn [pc_core pc_set with_alg pc_rot pc_plain];
      try reflexivity; eexists; split; try reflexivity; split; reflexivity.
  - destruct (i_core i') as [c|] eqn:Ec.
    + cbn [rot_new] in H. destruct (core_encrypt c _) as [c1 d]. destruct H as [H|H]; inversion H; subst; cbn [pc_core pc_set with_alg pc_rot].
      eexists. split; [reflexivity|]. split; [reflexivity|discriminate].
    + destruct H as [H|H]; inversion H; subst; reflexivity.
Qed.

(* C05-T4: the unwrap of the ECDH private key (Panic 11) is unreachable: an object awaiting the pong
   holds its private key, and keeps it unless the step ends in a fatal error (after which the node
   drops the object) *)
Definition ecdh_inv (s : init_state) : Prop := i_stage s = STAGE_PONG -> i_ecdh s <> None.

Lemma ecdh_inv_new : forall node salt payload key trusted al fresh rnd, ecdh_inv (init_new node salt payload key trusted al fresh rnd).
Proof. intros. unfold ecdh_inv, init_new. cbn. unfold STAGE_PING, STAGE_PONG. discriminate. Qed.

Lemma ecdh_inv_ping : forall s, ecdh_inv (fst (init_send_ping s)).
Proof.
  intros s. unfold init_send_ping, init_send. cbn [N.eqb STAGE_PING]. unfold ecdh_inv. cbn. intros _. discriminate.
Qed.

Lemma no_panic11 : forall ok s m, ecdh_inv s -> snd (fst (handle_init ok s m)) <> Panic 11.
Proof.
  intros ok s m Hinv H. destruct (handle_init_panic ok s m 11 H) as [(_ & Es & Ek)|(E & _)]; [exact (Hinv Es Ek)|discriminate E].
Qed.

(* C04/C05: the two ends of a handshake compare the same two salted hashes in opposite order, so
   they take opposite halves of the nonce space unless both (salt, node id) pairs coincide — which
   handle_init rejects as a connection to self *)
Lemma hash_gt_opposite : forall s1 n1 s2 n2, (s1 <> s2 \/ n1 <> n2) ->
  hash_gt s1 n1 s2 n2 = negb (hash_gt s2 n2 s1 n1).
Proof. intros s1 n1 s2 n2 H. unfold hash_gt. lia. Qed.
